(** C07.5 -- forged served data.  The adversary may replace EVERYTHING in the served form of a
    block (rollup data, rollup ids, the two roots and ALL Merkle proofs); the receiver is only
    assumed to know the data hash of the honest block.  Whatever the receivers accept is then the
    honest data, or exhibits an explicit SHA-256 collision, or is "leaf confusion": the forged
    root is the preimage of the leaf of ANOTHER data item of the block (the extended commit info
    or a user transaction), which cannot be excluded because the receivers do not check the
    POSITION of the two commitments in the data tree.

    The statements of this part are defined here, not in BlockDataSpec.v. *)
From Coq Require Import Lia NArith List.
From Astria Require Import BlockData.BlockDataMerkle BlockData.BlockDataSpec Merkle.MerkleSound
  BlockData.BlockDataLists BlockData.BlockDataRecv BlockData.BlockDataServe BlockData.BlockDataTamper.
From Astria Require BlockData.BlockDataGroup.
Import ListNotations.

Section Forge.
  Variable B : Type.
  Variable beq ltb : B -> B -> bool.
  Variable blen : B -> N.
  Variable cat : B -> B -> B.
  Variable sha leafH : B -> B.
  Variable nodeH : B -> B -> B.
  Variable emptyH zeroD : B.
  Variable Dp : Type.
  Variable encS : B -> B.
  Variable encD : Dp -> B.

  Local Notation Coll := (Coll B sha leafH nodeH emptyH).
  Local Notation BeqSpec := (BeqSpec B beq).
  Local Notation LtbSpec := (LtbSpec B ltb).
  Local Notation CatInj := (CatInj B blen cat).
  Local Notation CatLen := (CatLen B blen cat).
  Local Notation HashLen := (HashLen B blen leafH nodeH emptyH).
  Local Notation size_ok := (size_ok B Dp).
  Local Notation ids32 := (ids32 B blen Dp).
  Local Notation build_group := (build_group B beq ltb Dp encS encD).
  Local Notation finalize := (finalize B beq ltb cat sha leafH nodeH emptyH zeroD Dp encS encD).
  Local Notation mroot := (mroot B nodeH emptyH).
  Local Notation txs_root := (txs_root B leafH nodeH emptyH).
  Local Notation rollup_leaf := (rollup_leaf B cat leafH nodeH emptyH).
  Local Notation data_root := (data_root B cat leafH nodeH emptyH).
  Local Notation ids_root := (ids_root B leafH nodeH emptyH).
  Local Notation data_leaves := (data_leaves B sha).
  Local Notation pverifies := (pverifies B beq nodeH).
  Local Notation collect := (collect B beq).
  Local Notation entry_data := (entry_data B).
  Local Notation len32 := (len32 B blen).
  Local Notation recv_full := (recv_full B beq blen cat sha leafH nodeH emptyH).
  Local Notation recv_filtered := (recv_filtered B beq blen cat sha leafH nodeH emptyH).
  Local Notation recv_meta := (recv_meta B beq blen sha leafH nodeH emptyH).
  Local Notation blob_ok := (blob_ok B blen).
  Local Notation audit_blob := (audit_blob B beq cat leafH nodeH emptyH).
  Local Notation touched := (touched B beq Dp).
  Local Notation expected := (expected B beq Dp encS encD).
  Local Notation reconstruct := (reconstruct B beq cat leafH nodeH emptyH).

  Local Notation pverifies_inv := (pverifies_inv B beq nodeH).
  Local Notation leafH_inj := (leafH_inj B beq sha leafH nodeH emptyH).
  Local Notation sha_inj := (sha_inj B beq sha leafH nodeH emptyH).
  Local Notation leaf_lists_inj := (leaf_lists_inj B beq sha leafH nodeH emptyH).
  Local Notation pair_leaf_inj := (pair_leaf_inj B beq blen cat sha leafH nodeH emptyH).
  Local Notation data_root_inj := (data_root_inj B beq blen cat sha leafH nodeH emptyH).
  Local Notation hdr_rtr := (hdr_rtr B beq sha leafH nodeH emptyH).
  Local Notation rollup_leaf_pre := (rollup_leaf_pre B cat leafH nodeH emptyH).
  Local Notation Bad_leaves := (Bad_leaves B sha leafH nodeH emptyH).

  (** [x] is the preimage of the leaf of another data item of the block (the extended commit
      info or a user transaction) *)
  Definition LeafConf (rest : list (item_kind * B)) (x : B) : Prop :=
    In (sha x) (map snd (filter (keep_item B) rest)).

  (** an honestly built block [b] over the transactions [subs], [deps], [rest] *)
  Definition Honest (bh : B) (rest : list (item_kind * B)) (subs : list (B * B))
      (deps : list (B * list Dp)) (b : block B) : Prop :=
    BeqSpec /\ LtbSpec /\ CatInj /\ CatLen /\ HashLen /\
    size_ok subs deps rest /\ ids32 subs deps /\ blen bh = 32 /\
    finalize bh rest subs deps = BuildOk b.

  (** anything that verifies as a [sha]-leaf of the honest data hash is one of the two
      commitments, or another data item *)
  Definition stmt_root_anchor : Prop :=
    forall bh rest subs deps b, Honest bh rest subs deps b ->
    forall p x, pverifies p (leafH (sha x)) (b_dh b) = true ->
      x = b_rtr b \/ x = ids_root (map fst (build_group subs deps)) \/ LeafConf rest x \/ Coll.

  (** any (id, data) that verifies against the honest rollup transactions root is in the block *)
  Definition stmt_entry_member : Prop :=
    forall bh rest subs deps b, Honest bh rest subs deps b ->
    forall p id txs, blen id = 32 -> pverifies p (rollup_leaf id txs) (b_rtr b) = true ->
      In (id, txs) (build_group subs deps) \/ Coll.

  (** any list of 32-byte ids whose root verifies against the honest data hash is the id list *)
  Definition stmt_ids_anchor : Prop :=
    forall bh rest subs deps b, Honest bh rest subs deps b ->
    forall p ids', forallb len32 ids' = true ->
      pverifies p (leafH (sha (ids_root ids'))) (b_dh b) = true ->
      ids' = map fst (build_group subs deps) \/ LeafConf rest (ids_root ids') \/ Coll.

  (** [SequencerBlock::try_from_raw]: what it accepts decodes to the block's rollup data *)
  Definition stmt_full_forged : Prop :=
    forall bh rest subs deps b, Honest bh rest subs deps b ->
    forall b', b_dh b' = b_dh b -> recv_full b' = true ->
      map entry_data (collect (b_entries b')) = build_group subs deps \/
      LeafConf rest (b_rtr b') \/ Coll.

  (** [FilteredSequencerBlock::try_from_raw]: only entries of the block, and its id list *)
  Definition stmt_filtered_forged : Prop :=
    forall bh rest subs deps b, Honest bh rest subs deps b ->
    forall f', f_dh f' = b_dh b -> recv_filtered f' = true ->
      ((forall e, In e (collect (f_entries f')) -> In (entry_data e) (build_group subs deps)) /\
       f_all f' = map fst (build_group subs deps)) \/
      LeafConf rest (f_rtr f') \/ LeafConf rest (ids_root (f_all f')) \/ Coll.

  (** [SubmittedMetadata::try_from_raw] and the conductor's audit: the block's id list, and an
      audited rollup blob is an entry of the block *)
  Definition stmt_celestia_forged : Prop :=
    forall bh rest subs deps b, Honest bh rest subs deps b ->
    forall m' bl', m_dh m' = b_dh b -> recv_meta m' = true ->
      blob_ok bl' = true -> audit_blob m' bl' = true ->
      (m_ids m' = map fst (build_group subs deps) /\
       In (bl_id bl', bl_txs bl') (build_group subs deps)) \/
      LeafConf rest (m_rtr m') \/ LeafConf rest (ids_root (m_ids m')) \/ Coll.

  (** the conductor of rollup [r]: whatever accepted metadata with the honest data hash and whatever
      well-formed rollup blobs are published, every block it reconstructs carries exactly the data of [r] in
      the honest block, or nothing when [r] has no data there *)
  Definition stmt_conductor_forged : Prop :=
    forall bh rest subs deps b, Honest bh rest subs deps b ->
    forall m' bs' r h txs, m_dh m' = b_dh b -> recv_meta m' = true ->
      (forall bl, In bl bs' -> blob_ok bl = true) ->
      In (h, txs) (reconstruct [m'] bs' r) ->
      txs = (if touched r subs deps then expected r subs deps else []) \/
      LeafConf rest (m_rtr m') \/ LeafConf rest (ids_root (m_ids m')) \/ Coll.

  Lemma pv_member (Hb : BeqSpec) p y L :
    pverifies p (leafH y) (mroot (map leafH L)) = true -> In y L \/ Coll.
  Proof.
    intros V. apply pverifies_inv in V. apply (verify_true_inv B nodeH beq Hb) in V.
    unfold BlockDataModel.mroot in V.
    destruct (reconstruct_member B nodeH emptyH beq Hb _ _ _ V) as [H|C].
    - apply in_map_iff in H. destruct H as [z [Ez Hz]].
      destruct (leafH_inj Hb _ _ Ez) as [E|C]; [left; rewrite <- E; exact Hz|right; exact C].
    - right. exact (Bad_leaves (y :: L) C).
  Qed.

  Lemma rbytes_len (Hcl : CatLen) (Hh : HashLen) kv : blen (rollup_leaf_pre kv) = blen (fst kv) + 32.
  Proof.
    unfold BlockDataRecv.rollup_leaf_pre. rewrite Hcl. f_equal.
    apply (leaves_root_len B leafH nodeH emptyH blen Hh).
  Qed.

  Lemma data_hash_leaf (Hb : BeqSpec) rtr rir rest p x :
    pverifies p (leafH (sha x)) (mroot (map leafH (data_leaves rtr rir rest))) = true ->
    x = rtr \/ x = rir \/ LeafConf rest x \/ Coll.
  Proof.
    intros V. destruct (pv_member Hb _ _ _ V) as [H|C]; [|right; right; right; exact C].
    unfold BlockDataModel.data_leaves in H. destruct H as [H|[H|H]].
    - destruct (sha_inj Hb _ _ H) as [E|C]; [left; symmetry; exact E|right; right; right; exact C].
    - destruct (sha_inj Hb _ _ H) as [E|C]; [right; left; symmetry; exact E|right; right; right; exact C].
    - right. right. left. exact H.
  Qed.

  Lemma data_root_leaf (Hb : BeqSpec) (Hc : CatInj) (d : list (B * list B)) p id txs :
    (forall kv, In kv d -> blen (fst kv) = 32) -> blen id = 32 ->
    pverifies p (rollup_leaf id txs) (data_root d) = true -> In (id, txs) d \/ Coll.
  Proof.
    intros L32 Li V. rewrite data_root_leaves in V. unfold BlockDataModel.rollup_leaf in V.
    destruct (pv_member Hb _ _ _ V) as [H|C]; [|right; exact C].
    apply in_map_iff in H. destruct H as [[k v] [E Hk]]. unfold BlockDataRecv.rollup_leaf_pre in E. cbn [fst snd] in E.
    destruct (pair_leaf_inj Hb Hc k v id txs (L32 _ Hk) Li E) as [[E1 E2]|C]; [left|right; exact C].
    rewrite <- E1, <- E2. exact Hk.
  Qed.

  (** no rollup leaf verifies against a root of 32-byte ids: 64 bytes against 32 *)
  Lemma ids_root_no_rollup_leaf (Hb : BeqSpec) (Hcl : CatLen) (Hh : HashLen) (ids : list B) p id txs :
    (forall i, In i ids -> blen i = 32) -> blen id = 32 ->
    pverifies p (rollup_leaf id txs) (ids_root ids) = true -> Coll.
  Proof.
    intros L32 Li V. unfold BlockDataModel.rollup_leaf, BlockDataModel.ids_root in V.
    destruct (pv_member Hb _ _ _ V) as [H|C]; [|exact C].
    exfalso. apply L32 in H. change (cat id (txs_root txs)) with (rollup_leaf_pre (id, txs)) in H.
    rewrite (rbytes_len Hcl Hh) in H. cbn [fst] in H. rewrite Li in H. lia.
  Qed.

  (** only when both are empty: leaves of 64 bytes against leaves of 32 *)
  Lemma root_clash (Hb : BeqSpec) (Hcl : CatLen) (Hh : HashLen) (d : list (B * list B)) ids :
    (forall kv, In kv d -> blen (fst kv) = 32) -> (forall i, In i ids -> blen i = 32) ->
    data_root d = ids_root ids -> (d = [] /\ ids = []) \/ Coll.
  Proof.
    intros Ld Li E. rewrite data_root_leaves in E. unfold BlockDataModel.ids_root in E.
    destruct (leaf_lists_inj Hb _ _ E) as [E1|C]; [left|right; exact C].
    destruct d as [|kv d].
    - cbn [map] in E1. split; [reflexivity|symmetry; exact E1].
    - exfalso. assert (Hin : In (rollup_leaf_pre kv) ids) by (rewrite <- E1; left; reflexivity).
      apply Li in Hin. rewrite (rbytes_len Hcl Hh) in Hin.
      rewrite (Ld kv (or_introl eq_refl)) in Hin. lia.
  Qed.

  Lemma data_hash_ids (Hb : BeqSpec) (Hcl : CatLen) (Hh : HashLen) (d : list (B * list B)) rest p ids' :
    (forall kv, In kv d -> blen (fst kv) = 32) -> forallb len32 ids' = true ->
    pverifies p (leafH (sha (ids_root ids')))
      (mroot (map leafH (data_leaves (data_root d) (ids_root (map fst d)) rest))) = true ->
    ids' = map fst d \/ LeafConf rest (ids_root ids') \/ Coll.
  Proof.
    intros Ld Li V. pose proof (len32_all _ Li) as Li'.
    destruct (data_hash_leaf Hb _ _ _ _ _ V) as [E|[E|[E|C]]].
    - destruct (root_clash Hb Hcl Hh d ids' Ld Li' (eq_sym E)) as [[E1 E2]|C];
        [left|right; right; exact C].
      rewrite E1, E2. reflexivity.
    - unfold BlockDataModel.ids_root in E.
      destruct (leaf_lists_inj Hb _ _ E) as [E1|C]; [left; exact E1|right; right; exact C].
    - right. left. exact E.
    - right. right. exact C.
  Qed.

  Lemma honest_char bh rest subs deps b : Honest bh rest subs deps b ->
    b_rtr b = data_root (build_group subs deps) /\
    b_dh b = mroot (map leafH (data_leaves (data_root (build_group subs deps))
                                           (ids_root (map fst (build_group subs deps))) rest)) /\
    (forall kv, In kv (build_group subs deps) -> blen (fst kv) = 32).
  Proof.
    intros (Hb & Hl & _ & _ & Hh & Hs & Hi & Hbh & Hf).
    destruct (finalize_honest B beq ltb cat sha leafH nodeH emptyH zeroD Dp encS encD blen Hb Hl Hh
                bh rest subs deps b Hs Hi Hbh Hf) as ((_ & _ & R & _) & _ & Hd & Edh).
    split; [rewrite R, Hd; reflexivity|]. split; [exact Edh|].
    intros kv Hk. apply (ids_len32 B beq ltb Dp encS encD blen Hb Hl subs deps Hi).
    apply in_map. exact Hk.
  Qed.

  Lemma ids_of_len (d : list (B * list B)) :
    (forall kv, In kv d -> blen (fst kv) = 32) -> forall i, In i (map fst d) -> blen i = 32.
  Proof.
    intros Ld i Hi. apply in_map_iff in Hi. destruct Hi as [kv [E Hk]]. rewrite <- E.
    apply Ld. exact Hk.
  Qed.

  (** the root cannot be the ids root, whose leaves are 32 bytes long *)
  Lemma forged_entry (Hb : BeqSpec) (Hc : CatInj) (Hcl : CatLen) (Hh : HashLen)
      (d : list (B * list B)) rest p rtr' q id txs :
    (forall kv, In kv d -> blen (fst kv) = 32) -> blen id = 32 ->
    pverifies p (leafH (sha rtr'))
      (mroot (map leafH (data_leaves (data_root d) (ids_root (map fst d)) rest))) = true ->
    pverifies q (rollup_leaf id txs) rtr' = true ->
    In (id, txs) d \/ LeafConf rest rtr' \/ Coll.
  Proof.
    intros Ld Li V1 Ve. destruct (data_hash_leaf Hb _ _ _ _ _ V1) as [E1|[E1|[E1|C]]].
    - rewrite E1 in Ve.
      destruct (data_root_leaf Hb Hc d _ _ _ Ld Li Ve) as [P|C]; [left; exact P|right; right; exact C].
    - rewrite E1 in Ve. right. right.
      exact (ids_root_no_rollup_leaf Hb Hcl Hh (map fst d) _ _ _ (ids_of_len d Ld) Li Ve).
    - right. left. exact E1.
    - right. right. exact C.
  Qed.

  Lemma root_anchor : stmt_root_anchor.
  Proof.
    intros bh rest subs deps b H p x V. pose proof H as (Hb & _).
    destruct (honest_char _ _ _ _ _ H) as (Er & Ed & _). rewrite Ed in V. rewrite Er.
    exact (data_hash_leaf Hb _ _ _ _ _ V).
  Qed.

  Lemma entry_member : stmt_entry_member.
  Proof.
    intros bh rest subs deps b H p id txs Li V. pose proof H as (Hb & _ & Hc & _).
    destruct (honest_char _ _ _ _ _ H) as (Er & _ & Ld). rewrite Er in V.
    exact (data_root_leaf Hb Hc _ _ _ _ Ld Li V).
  Qed.

  Lemma ids_anchor : stmt_ids_anchor.
  Proof.
    intros bh rest subs deps b H p ids' Li V. pose proof H as (Hb & _ & _ & Hcl & Hh & _).
    destruct (honest_char _ _ _ _ _ H) as (_ & Ed & Ld). rewrite Ed in V.
    exact (data_hash_ids Hb Hcl Hh _ _ _ _ Ld Li V).
  Qed.

  Lemma full_forged : stmt_full_forged.
  Proof.
    intros bh rest subs deps b H b' Edh R. pose proof H as (Hb & _ & Hc & Hcl & Hh & _).
    destruct (honest_char _ _ _ _ _ H) as (Er & Ed & Ld).
    apply (recv_full_iff Hb) in R. destruct R as ((_ & L & V1 & _) & _ & _ & V2).
    rewrite Edh, Ed in V1, V2.
    set (m' := map entry_data (collect (b_entries b'))) in *.
    set (d := build_group subs deps) in *.
    assert (Lm : forall kv, In kv m' -> blen (fst kv) = 32).
    { intros kv Hk. apply (len32_all _ L). rewrite <- data_fst. apply in_map. exact Hk. }
    destruct (hdr_rtr Hb _ _ _ _ V1 V2) as [E|C]; [|right; right; exact C].
    destruct (data_hash_leaf Hb _ _ _ _ _ V1) as [E1|[E1|[E1|C]]].
    - destruct (data_root_inj Hb Hc m' d Lm Ld) as [E2|C];
        [rewrite E, E1; reflexivity|left; exact E2|right; right; exact C].
    - destruct (root_clash Hb Hcl Hh m' (map fst d) Lm (ids_of_len d Ld)) as [[Em Ei]|C];
        [rewrite E, E1; reflexivity|left|right; right; exact C].
      rewrite Em. symmetry. apply (map_eq_nil fst). exact Ei.
    - right. left. exact E1.
    - right. right. exact C.
  Qed.

  Lemma filtered_forged : stmt_filtered_forged.
  Proof.
    intros bh rest subs deps b H f' Edh R. pose proof H as (Hb & _ & Hc & Hcl & Hh & _).
    destruct (honest_char _ _ _ _ _ H) as (Er & Ed & Ld).
    apply recv_filtered_iff in R. destruct R as ((_ & La & V1 & V2) & W & Ve).
    rewrite Edh, Ed in V1, V2. rewrite forallb_forall in W, Ve.
    set (d := build_group subs deps) in *.
    destruct (forall_in_or (fun e => In (entry_data e) d) (LeafConf rest (f_rtr f') \/ Coll)
                (collect (f_entries f'))) as [P|[L|C]];
      [| |right; left; exact L|right; right; right; exact C].
    { intros e He. apply (forged_entry Hb Hc Hcl Hh d rest (f_rtp f') (f_rtr f') (e_proof e) (e_id e) (e_txs e) Ld);
        [|exact V1|].
      - apply entry_wf_len, W, (collect_incl Hb), He.
      - exact (Ve e He). }
    destruct (data_hash_ids Hb Hcl Hh d rest _ _ Ld La V2) as [E|[L|C]].
    - left. split; assumption.
    - right. right. left. exact L.
    - right. right. right. exact C.
  Qed.

  Lemma celestia_forged : stmt_celestia_forged.
  Proof.
    intros bh rest subs deps b H m' bl' Edh R Ok Au. pose proof H as (Hb & _ & Hc & Hcl & Hh & _).
    destruct (honest_char _ _ _ _ _ H) as (Er & Ed & Ld).
    apply recv_meta_iff in R. destruct R as (_ & La & V1 & V2). rewrite Edh, Ed in V1, V2.
    set (d := build_group subs deps) in *.
    destruct (forged_entry Hb Hc Hcl Hh d rest _ _ _ _ _ Ld (blob_ok_len _ Ok) V1 Au)
      as [P|[L|C]]; [|right; left; exact L|right; right; right; exact C].
    destruct (data_hash_ids Hb Hcl Hh d rest _ _ Ld La V2) as [E|[L|C]].
    - left. split; assumption.
    - right. right. left. exact L.
    - right. right. right. exact C.
  Qed.

  Lemma conductor_forged : stmt_conductor_forged.
  Proof.
    intros bh rest subs deps b H m' bs' r h txs Edh R Ok Hin.
    pose proof H as (Hb & Hl & _).
    destruct (BlockDataGroup.group_exact B beq ltb Dp encS encD Hb Hl subs deps) as (S & Hk & Hg & _).
    pose proof (BlockDataGroup.sorted_ids_nodup B ltb Hl _ S) as ND.
    destruct (reconstruct_one_inv Hb _ _ _ _ _ Hin) as [(bl & Hbl & Eid & Au & ->)|[Hm ->]].
    - destruct (celestia_forged bh rest subs deps b H m' bl Edh R (Ok bl Hbl) Au) as [[_ P]|Bad];
        [left|right; exact Bad].
      rewrite Eid in P.
      apply (BlockDataGroup.im_get_unique B beq Hb _ _ _ _ ND) in P. rewrite Hg in P.
      destruct (touched r subs deps); [injection P as <-; reflexivity|discriminate].
    - destruct (proj1 (recv_meta_iff _) R) as (_ & La & _ & V2). rewrite Edh in V2.
      destruct (ids_anchor bh rest subs deps b H _ _ La V2) as [E|Bad]; [left|right; right; exact Bad].
      rewrite E in Hm. apply (BlockDataGroup.mem_false B beq Hb) in Hm.
      destruct (touched r subs deps) eqn:T; [|reflexivity].
      exfalso. apply Hm. apply Hk. exact T.
  Qed.
End Forge.

Check (root_anchor : forall B beq ltb blen cat sha leafH nodeH emptyH zeroD Dp encS encD,
  stmt_root_anchor B beq ltb blen cat sha leafH nodeH emptyH zeroD Dp encS encD).
Check (entry_member : forall B beq ltb blen cat sha leafH nodeH emptyH zeroD Dp encS encD,
  stmt_entry_member B beq ltb blen cat sha leafH nodeH emptyH zeroD Dp encS encD).
Check (ids_anchor : forall B beq ltb blen cat sha leafH nodeH emptyH zeroD Dp encS encD,
  stmt_ids_anchor B beq ltb blen cat sha leafH nodeH emptyH zeroD Dp encS encD).
Check (full_forged : forall B beq ltb blen cat sha leafH nodeH emptyH zeroD Dp encS encD,
  stmt_full_forged B beq ltb blen cat sha leafH nodeH emptyH zeroD Dp encS encD).
Check (filtered_forged : forall B beq ltb blen cat sha leafH nodeH emptyH zeroD Dp encS encD,
  stmt_filtered_forged B beq ltb blen cat sha leafH nodeH emptyH zeroD Dp encS encD).
Check (celestia_forged : forall B beq ltb blen cat sha leafH nodeH emptyH zeroD Dp encS encD,
  stmt_celestia_forged B beq ltb blen cat sha leafH nodeH emptyH zeroD Dp encS encD).
Check (conductor_forged : forall B beq ltb blen cat sha leafH nodeH emptyH zeroD Dp encS encD,
  stmt_conductor_forged B beq ltb blen cat sha leafH nodeH emptyH zeroD Dp encS encD).
Print Assumptions root_anchor.
Print Assumptions entry_member.
Print Assumptions ids_anchor.
Print Assumptions full_forged.
Print Assumptions filtered_forged.
Print Assumptions celestia_forged.
Print Assumptions conductor_forged.
