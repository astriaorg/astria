(** C07 -- non-vacuity: a concrete instance (byte strings = lists of numbers, a toy "hash" with
    32-element digests, injective on lists of numbers below 65536 only) on which the stated
    outcomes can be computed; the witnesses of the negative results (and of what finding F16 was);
    the observation about the upgrade change hashes item. *)
From Astria Require Import BlockData.BlockDataModel BlockData.BlockDataSpec.

Definition TB := list N.
Fixpoint t_beq (a b : TB) : bool :=
  match a, b with
  | [], [] => true
  | x :: a', y :: b' => (x =? y) && t_beq a' b'
  | _, _ => false
  end.
Fixpoint t_ltb (a b : TB) : bool :=
  match a, b with
  | [], _ :: _ => true
  | x :: a', y :: b' => (x <? y) || ((x =? y) && t_ltb a' b')
  | _, _ => false
  end.
Definition t_blen (a : TB) : N := N.of_nat (length a).
Definition t_cat (a b : TB) : TB := a ++ b.
(** an injective encoding of a list of small numbers into one number *)
Definition godel (x : TB) : N := fold_right (fun v acc => acc * 65536 + v + 1) 0 x.
Definition h32 (tag : N) (x : TB) : TB := tag :: godel x :: repeat 0 30.
Definition t_sha (x : TB) : TB := h32 3 x.
Definition t_leafH (x : TB) : TB := h32 0 x.
Definition t_nodeH (a b : TB) : TB := h32 1 (a ++ b).
Definition t_emptyH : TB := h32 2 [].
Definition t_zero : TB := repeat 0 32.
Definition t_encS (x : TB) : TB := 10 :: N.of_nat (length x) :: x.
Definition t_encD (x : TB) : TB := 18 :: x.

Definition rid (k : N) : TB := repeat k 32.

Notation t_finalize := (finalize TB t_beq t_ltb t_cat t_sha t_leafH t_nodeH t_emptyH t_zero TB t_encS t_encD).
Notation t_recv_full := (recv_full TB t_beq t_blen t_cat t_sha t_leafH t_nodeH t_emptyH).
Notation t_recv_filtered := (recv_filtered TB t_beq t_blen t_cat t_sha t_leafH t_nodeH t_emptyH).
Notation t_recv_meta := (recv_meta TB t_beq t_blen t_sha t_leafH t_nodeH t_emptyH).
Notation t_audit := (audit_blob TB t_beq t_cat t_leafH t_nodeH t_emptyH).
Notation t_reconstruct := (reconstruct TB t_beq t_cat t_leafH t_nodeH t_emptyH).
Notation t_reconstruct_before_fix := (reconstruct_before_F16_fix TB t_beq t_cat t_leafH t_nodeH t_emptyH).
Notation t_serve := (serve_filtered TB t_beq t_ltb).
Notation t_expected := (expected TB t_beq TB t_encS t_encD).

(** a block: rollup 3 gets [7],[7] (a repeated payload), rollup 1 the empty payload, rollup 2
    [1;2]; deposits for rollup 1 (which also has sequenced data) and rollup 9 (deposits only);
    data items after the commitments: an upgrade change hashes item and two user transactions *)
Definition ex_subs : list (TB * TB) := [(rid 3, [7]); (rid 1, []); (rid 3, [7]); (rid 2, [1; 2])].
Definition ex_deps : list (TB * list TB) := [(rid 9, [[5; 5]]); (rid 1, [[4]; [6]])].
Definition ex_rest : list (item_kind * TB) := [(KUpgrade, h32 3 [100]); (KTx, h32 3 [101]); (KTx, h32 3 [102])].
Definition ex_bh : TB := repeat 42 32.

Definition ex_block : option (block TB) :=
  match t_finalize ex_bh ex_rest ex_subs ex_deps with BuildOk b => Some b | _ => None end.

Definition on_block {A} (f : block TB -> A) (d : A) : A :=
  match ex_block with Some b => f b | None => d end.

(** The block is evaluated once; the examples start from the result. *)
Definition ex_built : build_res TB := Eval vm_compute in t_finalize ex_bh ex_rest ex_subs ex_deps.

Lemma ex_built_eq : t_finalize ex_bh ex_rest ex_subs ex_deps = ex_built.
Proof. vm_compute. reflexivity. Qed.

Lemma on_block_built {A} (f : block TB -> A) (d v : A) :
  match ex_built with BuildOk b => f b | _ => d end = v -> on_block f d = v.
Proof. unfold on_block, ex_block. rewrite ex_built_eq. destruct ex_built; exact (fun H => H). Qed.

(** group_exact / served_exact: ids sorted = 1,2,3,9; each list = sequenced payloads in block order, then deposits *)
Example ex_data_exact :
  on_block (fun b => map (entry_data TB) (b_entries b)) []
  = [(rid 1, [t_encS []; t_encD [4]; t_encD [6]]); (rid 2, [t_encS [1; 2]]);
     (rid 3, [t_encS [7]; t_encS [7]]); (rid 9, [t_encD [5; 5]])].
Proof. apply on_block_built. vm_compute. reflexivity. Qed.

Example ex_expected :
  map (fun r => t_expected r ex_subs ex_deps) [rid 1; rid 2; rid 3; rid 9; rid 4]
  = [[t_encS []; t_encD [4]; t_encD [6]]; [t_encS [1; 2]]; [t_encS [7]; t_encS [7]]; [t_encD [5; 5]]; []].
Proof. vm_compute. reflexivity. Qed.

(** the deposit map in another iteration order gives the same block *)
Example ex_dep_order :
  t_finalize ex_bh ex_rest ex_subs (rev ex_deps) = t_finalize ex_bh ex_rest ex_subs ex_deps.
Proof. rewrite ex_built_eq. vm_compute. reflexivity. Qed.

(** served_verifies: full, stored, filtered (with an absent and a repeated id), Celestia *)
Example ex_full_verifies :
  on_block (fun b => t_recv_full b && t_recv_full (stored_block TB t_beq b)) false = true.
Proof. apply on_block_built. vm_compute. reflexivity. Qed.

Example ex_filtered_verifies :
  on_block (fun b => t_recv_filtered (t_serve b [rid 3; rid 4; rid 1; rid 3]) &&
                     t_recv_filtered (t_serve b []) &&
                     t_recv_filtered (to_filtered TB t_beq b [rid 9; rid 9])) false = true.
Proof. apply on_block_built. vm_compute. reflexivity. Qed.

Example ex_filtered_content :
  on_block (fun b => map (entry_data TB) (f_entries (t_serve b [rid 3; rid 4; rid 1]))) []
  = [(rid 3, [t_encS [7]; t_encS [7]]); (rid 1, [t_encS []; t_encD [4]; t_encD [6]])].
Proof. apply on_block_built. vm_compute. reflexivity. Qed.

Example ex_celestia_verifies :
  on_block (fun b => let '(m, bs) := split_celestia TB b in
                     t_recv_meta m && forallb (fun bl => blob_ok TB t_blen bl && t_audit m bl) bs &&
                     (length bs =? 4)%nat) false = true.
Proof. apply on_block_built. vm_compute. reflexivity. Qed.

(** the conductor of rollup 1 / of rollup 4 (no data), given ALL four published blobs *)
Example ex_conductor_own :
  on_block (fun b => let '(m, bs) := split_celestia TB b in
                     (t_reconstruct [m] bs (rid 1), t_reconstruct [m] bs (rid 4))) ([], [])
  = ([(ex_bh, [t_encS []; t_encD [4]; t_encD [6]])], [(ex_bh, [])]).
Proof. apply on_block_built. vm_compute. reflexivity. Qed.

(** filtered_named: each named tampering of rollup 3's list (entry 0 of the filtered block for
    [rid 3; rid 1]) is rejected; so are the re-attribution, the foreign proof and the edits of
    the roots and of the id list *)
Definition ex_f : option (filtered TB) :=
  match ex_block with Some b => Some (t_serve b [rid 3; rid 1]) | None => None end.
Definition rejected (t : tamper TB) : bool :=
  match ex_f with Some f => t_recv_filtered f && negb (t_recv_filtered (tamper_f TB t f)) | None => false end.

Definition ex_f_built : option (filtered TB) := Eval vm_compute in ex_f.

Lemma ex_f_eq : ex_f = ex_f_built.
Proof. unfold ex_f, ex_block. rewrite ex_built_eq. vm_compute. reflexivity. Qed.

Lemma on_ex_f {A} (g : filtered TB -> A) (d v : A) :
  match ex_f_built with Some f => g f | None => d end = v ->
  match ex_f with Some f => g f | None => d end = v.
Proof. rewrite ex_f_eq. exact (fun H => H). Qed.

(** The untampered block is checked once, not once per tampering. *)
Lemma forallb_rejected (l : list (tamper TB)) :
  match ex_f_built with
  | Some f => t_recv_filtered f && forallb (fun t => negb (t_recv_filtered (tamper_f TB t f))) l
  | None => false
  end = true ->
  forallb rejected l = true.
Proof.
  unfold rejected. rewrite ex_f_eq. destruct ex_f_built as [f|]; [|discriminate].
  intros H. apply andb_prop in H. destruct H as [H1 H2]. rewrite H1. exact H2.
Qed.

Example ex_tamper_rejected :
  forallb rejected
    [TAlter 0 0 (t_encS [8]); TDrop 0 1; TDup 0 0; TApp 0 (t_encS []); TReid 0 (rid 5); TReid 1 (rid 3);
     TMvData 0 1; TSwapProof 0 1; TRtr (repeat 1 32); TDh (repeat 1 32); TIdsDrop 0; TIdsAdd (rid 5);
     TIdsSwap 0; TAlter 1 2 (t_encD [7]); TSwap 1 0] = true.
Proof. apply forallb_rejected. vm_compute. reflexivity. Qed.

(** exchanging two EQUAL neighbours is not a tampering: still accepted *)
Example ex_swap_equal_accepted :
  match ex_f with Some f => t_recv_filtered (tamper_f TB (TSwap 0 0) f) | None => false end = true.
Proof. apply on_ex_f. vm_compute. reflexivity. Qed.

(** full block: the same, plus removal / reordering of whole rollups *)
Example ex_full_tamper_rejected :
  on_block (fun b => forallb (fun t => negb (t_recv_full (tamper_full TB t b)))
                       [TAlter 2 0 (t_encS [8]); TDrop 0 0; TApp 3 (t_encD []); TReid 1 (rid 5); TReid 0 (rid 2);
                        TRmEntry 1; TSwapEntry 0 1; TSwapProof 0 3; TRtr (repeat 1 32); TDh (repeat 1 32)]) false = true.
Proof. apply on_block_built. vm_compute. reflexivity. Qed.

(** what is NOT detected. (1) the block hash *)
Example ex_block_hash_unbound :
  on_block (fun b => t_recv_full (tamper_full TB (TBh (repeat 43 32)) b) &&
                     t_recv_filtered (tamper_f TB (TBh (repeat 43 32)) (t_serve b [rid 2]))) false = true.
Proof. apply on_block_built. vm_compute. reflexivity. Qed.

(** (2) a filtered block without one of the requested rollups; also reached by re-attributing an
    entry to the id of a LATER entry (the receiver's IndexMap keeps the later one) *)
Example ex_filtered_omission :
  match ex_f with
  | Some f => (t_recv_filtered (tamper_f TB (TRmEntry 0) f),
               t_recv_filtered (tamper_f TB (TReid 0 (rid 1)) f),
               map (entry_data TB) (collect TB t_beq (f_entries (tamper_f TB (TReid 0 (rid 1)) f))))
  | None => (false, false, [])
  end = (true, true, [(rid 1, [t_encS []; t_encD [4]; t_encD [6]])]).
Proof. apply on_ex_f. vm_compute. reflexivity. Qed.

(** (3) -- repaired (finding F16): the conductor of rollup 4 (no data in this block) or of rollup 1,
    handed only the genuine blob of rollup 3, no longer reconstructs rollup 3's data: rollup 4
    gets the empty block, rollup 1 (listed in the metadata, its own blob missing) nothing. *)
Example ex_conductor_foreign_blob :
  on_block (fun b => let '(m, bs) := split_celestia TB b in
                     match nth_error bs 2 with
                     | Some bl3 => (t_reconstruct [m] [bl3] (rid 4), t_reconstruct [m] [bl3] (rid 1))
                     | None => ([(ex_bh, [[0]])], [(ex_bh, [[0]])])
                     end) ([(ex_bh, [[0]])], [(ex_bh, [[0]])])
  = ([(ex_bh, [])], []).
Proof. apply on_block_built. vm_compute. reflexivity. Qed.

(** What finding F16 was: for the reconstruction as it was BEFORE the repair
    ([reconstruct_before_F16_fix], BlockDataSpec.v) the statement "whatever the conductor of
    rollup [r] reconstructs from accepted metadata and audited blobs is [r]'s data" is false.  The
    witness (the third blob of the example block, handed to rollup 4) is checked by computation
    ([ex_wit_ok]); the existential statement is read off the same boolean check
    ([third_blob_refutes]). *)
Lemma t_beq_refl a : t_beq a a = true.
Proof. induction a as [|x a IH]; cbn; [reflexivity|]. rewrite N.eqb_refl. exact IH. Qed.
Lemma t_beq_true a : forall b, t_beq a b = true -> a = b.
Proof.
  induction a as [|x a IH]; intros [|y b] H; cbn in H; try discriminate; [reflexivity|].
  apply andb_prop in H. destruct H as [H1 H2]. apply N.eqb_eq in H1. subst y.
  rewrite (IH _ H2). reflexivity.
Qed.
Lemma t_beq_false a b : t_beq a b = false -> a <> b.
Proof. intros H E. subst b. rewrite t_beq_refl in H. discriminate H. Qed.
Fixpoint tl_beq (a b : list TB) : bool :=
  match a, b with
  | [], [] => true
  | x :: a', y :: b' => t_beq x y && tl_beq a' b'
  | _, _ => false
  end.
Lemma tl_beq_refl a : tl_beq a a = true.
Proof. induction a as [|x a IH]; cbn; [reflexivity|]. rewrite t_beq_refl. exact IH. Qed.
Lemma tl_beq_true a : forall b, tl_beq a b = true -> a = b.
Proof.
  induction a as [|x a IH]; intros [|y b] H; cbn in H; try discriminate; [reflexivity|].
  apply andb_prop in H. destruct H as [H1 H2]. apply t_beq_true in H1. subst y.
  rewrite (IH _ H2). reflexivity.
Qed.
Lemma tl_beq_false a b : tl_beq a b = false -> a <> b.
Proof. intros H E. subst b. rewrite tl_beq_refl in H. discriminate H. Qed.

Definition ex_wit : option (meta TB * blob TB) :=
  match ex_block with
  | Some b => match nth_error (snd (split_celestia TB b)) 2 with
              | Some bl => Some (fst (split_celestia TB b), bl)
              | None => None
              end
  | None => None
  end.
Definition ex_wit_check : bool :=
  match ex_wit with
  | Some (m, bl) =>
      t_recv_meta m && blob_ok TB t_blen bl && t_audit m bl &&
      match t_reconstruct_before_fix [m] [bl] (rid 4) with
      | [(h, txs)] => t_beq h (m_hash m) && tl_beq txs (bl_txs bl)
      | _ => false
      end &&
      negb (t_beq (bl_id bl) (rid 4)) &&
      negb (tl_beq (bl_txs bl) (t_expected (rid 4) ex_subs ex_deps))
  | None => false
  end.
Example ex_wit_ok : ex_wit_check = true.
Proof. unfold ex_wit_check, ex_wit, ex_block. rewrite ex_built_eq. vm_compute. reflexivity. Qed.

(** What [ex_wit_check] asks of the witness, and what it proves; over an arbitrary block, so that
    nothing is evaluated here. *)
Definition wit_ok (m : meta TB) (bl : blob TB) : bool :=
  t_recv_meta m && blob_ok TB t_blen bl && t_audit m bl &&
  match t_reconstruct_before_fix [m] [bl] (rid 4) with
  | [(h, txs)] => t_beq h (m_hash m) && tl_beq txs (bl_txs bl)
  | _ => false
  end &&
  negb (t_beq (bl_id bl) (rid 4)) &&
  negb (tl_beq (bl_txs bl) (t_expected (rid 4) ex_subs ex_deps)).

Lemma wit_ok_sound m bl : wit_ok m bl = true ->
  t_recv_meta m = true /\ blob_ok TB t_blen bl = true /\ t_audit m bl = true /\
  In (m_hash m, bl_txs bl) (t_reconstruct_before_fix [m] [bl] (rid 4)) /\
  bl_id bl <> rid 4 /\ bl_txs bl <> t_expected (rid 4) ex_subs ex_deps.
Proof.
  unfold wit_ok. rewrite !andb_true_iff, !negb_true_iff. intros [[[[[H1 H2] H3] H4] H5] H6].
  destruct (t_reconstruct_before_fix [m] [bl] (rid 4)) as [|[h txs] [|x rest]]; try discriminate H4.
  apply andb_prop in H4. destruct H4 as [Hh Ht].
  apply t_beq_true in Hh. apply tl_beq_true in Ht. subst h txs.
  repeat split; try assumption;
    [left; reflexivity | apply t_beq_false; exact H5 | apply tl_beq_false; exact H6].
Qed.

Lemma third_blob_refutes (ob : option (block TB)) :
  match ob with
  | Some b => match nth_error (snd (split_celestia TB b)) 2 with
              | Some bl => wit_ok (fst (split_celestia TB b)) bl
              | None => false
              end
  | None => false
  end = true ->
  exists (m : meta TB) (bl : blob TB) (r : TB) (txs : list TB),
    t_recv_meta m = true /\ blob_ok TB t_blen bl = true /\ t_audit m bl = true /\
    In (m_hash m, txs) (t_reconstruct_before_fix [m] [bl] r) /\
    bl_id bl <> r /\ txs <> t_expected r ex_subs ex_deps /\
    match ob with
    | Some b => fst (split_celestia TB b) = m /\ In bl (snd (split_celestia TB b))
    | None => False
    end.
Proof.
  destruct ob as [b|]; [|discriminate].
  destruct (nth_error _ 2) as [bl|] eqn:Eb; [|discriminate]. intros H.
  destruct (wit_ok_sound _ _ H) as (H1 & H2 & H3 & H4 & H5 & H6).
  exists (fst (split_celestia TB b)), bl, (rid 4), (bl_txs bl).
  repeat split; try assumption. exact (nth_error_In _ _ Eb).
Qed.

Lemma conductor_before_F16_fix_refuted :
  exists (m : meta TB) (bl : blob TB) (r : TB) (txs : list TB),
    t_recv_meta m = true /\ blob_ok TB t_blen bl = true /\ t_audit m bl = true /\
    In (m_hash m, txs) (t_reconstruct_before_fix [m] [bl] r) /\
    bl_id bl <> r /\ txs <> t_expected r ex_subs ex_deps /\
    on_block (fun b => fst (split_celestia TB b) = m /\ In bl (snd (split_celestia TB b))) False.
Proof.
  (* Evaluated afresh instead of taken from [ex_wit_ok]: converting [ex_wit_check] into the
     hypothesis of [third_blob_refutes] makes the kernel evaluate the block on both sides. *)
  apply (third_blob_refutes ex_block). unfold ex_block. rewrite ex_built_eq. vm_compute. reflexivity.
Qed.

(** Observation (modelled faithfully, not part of C07's claim): the upgrade change hashes item of
    an upgrade-activation block is not a leaf of the tree whose root becomes [header.data_hash];
    the data hash is the same with and without it.  (CometBFT's own data hash covers every item,
    and hashes the ENCODED commitments; all astria proofs are relative to this computed root.) *)
Lemma upgrade_item_not_committed :
  forall (B : Type) (sha : B -> B) rtr rir x rest,
    data_leaves B sha rtr rir ((KUpgrade, x) :: rest) = data_leaves B sha rtr rir rest.
Proof. reflexivity. Qed.

Example ex_upgrade_item_not_committed :
  t_finalize ex_bh (tl ex_rest) ex_subs ex_deps = t_finalize ex_bh ex_rest ex_subs ex_deps.
Proof. rewrite ex_built_eq. vm_compute. reflexivity. Qed.
