(** C07 -- the grouping of rollup data by rollup id: association lists as [IndexMap]s, and the
    proofs of [stmt_group_exact], [stmt_ids_with_data], [stmt_group_dep_order].
    The laws of the parameters are section hypotheses; a [stmt_] definition has them as premises
    too, which the [_sec] proofs drop and the closed theorems supply to both. *)
From Astria Require Import Base.Lists BlockData.BlockDataModel BlockData.BlockDataSpec.

Section Group.
  Variable B : Type.
  Variable beq : B -> B -> bool.

  Local Notation im_get := (im_get B beq).
  Local Notation im_extend := (im_extend B beq).
  Local Notation im_insert := (im_insert B beq).
  Local Notation im_collect := (im_collect B beq).
  Local Notation mem := (mem B beq).

  Hypothesis Hbeq : BeqSpec B beq.

  Lemma bq_true a b : beq a b = true -> a = b.
  Proof. apply Hbeq. Qed.
  Lemma bq_refl a : beq a a = true.
  Proof. apply Hbeq. reflexivity. Qed.
  Lemma bq_neq a b : a <> b -> beq a b = false.
  Proof. intros H. destruct (beq a b) eqn:E; [|reflexivity]. apply bq_true in E. contradiction. Qed.
  Lemma bq_sym a b : beq a b = beq b a.
  Proof.
    destruct (beq a b) eqn:E.
    - apply bq_true in E. subst. symmetry. apply bq_refl.
    - symmetry. apply bq_neq. intros H. subst. rewrite bq_refl in E. discriminate.
  Qed.

  Lemma mem_cons r x l : mem r (x :: l) = beq r x || mem r l.
  Proof. reflexivity. Qed.
  Lemma mem_In r l : mem r l = true <-> In r l.
  Proof.
    unfold BlockDataModel.mem. rewrite existsb_exists. split.
    - intros [x [H1 H2]]. apply bq_true in H2. subst. exact H1.
    - intros H. exists r. split; [exact H|apply bq_refl].
  Qed.
  Lemma mem_false r l : mem r l = false <-> ~ In r l.
  Proof. rewrite <- mem_In. destruct (mem r l); split; congruence. Qed.
  Lemma mem_perm r l l' : Permutation l l' -> mem r l = mem r l'.
  Proof.
    intros P. destruct (mem r l') eqn:M.
    - apply mem_In. apply mem_In in M. eapply Permutation_in; [apply Permutation_sym; exact P|exact M].
    - apply mem_false. apply mem_false in M. intros H. apply M. eapply Permutation_in; [exact P|exact H].
  Qed.

  (** the keys after [insert] or [entry(k).or_default()] *)
  Definition upsert_keys (k : B) (ks : list B) : list B := if mem k ks then ks else ks ++ [k].

  Lemma upsert_keys_In k ks r : In r (upsert_keys k ks) <-> In r ks \/ r = k.
  Proof.
    unfold upsert_keys. destruct (mem k ks) eqn:M.
    - apply mem_In in M. split; [tauto|]. intros [H| ->]; assumption.
    - rewrite in_app_iff. cbn. intuition.
  Qed.
  Lemma upsert_keys_nodup k ks : NoDup ks -> NoDup (upsert_keys k ks).
  Proof.
    intros ND. unfold upsert_keys. destruct (mem k ks) eqn:M; [exact ND|]. apply mem_false in M.
    apply (Permutation_NoDup (Permutation_cons_append ks k)). constructor; assumption.
  Qed.

  Section Get.
    Variable V : Type.
    Implicit Types m : list (B * V).

    Lemma im_get_In m r v : im_get m r = Some v -> In (r, v) m.
    Proof.
      induction m as [|[k x] m IH]; cbn; [discriminate|].
      destruct (beq k r) eqn:E; intros H.
      - apply bq_true in E. left. congruence.
      - right. auto.
    Qed.
    Lemma get_Some_key m r v : im_get m r = Some v -> In r (map fst m).
    Proof. intros H. apply im_get_In in H. apply (in_map fst) in H. exact H. Qed.
    Lemma im_get_notin m r : ~ In r (map fst m) -> im_get m r = None.
    Proof.
      induction m as [|[k x] m IH]; cbn; [reflexivity|]. intros H.
      rewrite bq_neq by tauto. apply IH. tauto.
    Qed.
    Lemma key_get_Some m r : In r (map fst m) -> exists v, im_get m r = Some v.
    Proof.
      induction m as [|[k x] m IH]; cbn; [tauto|]. intros [H|H].
      - subst. rewrite bq_refl. eauto.
      - destruct (beq k r); eauto.
    Qed.
    Lemma im_get_unique m r v : NoDup (map fst m) -> In (r, v) m -> im_get m r = Some v.
    Proof.
      induction m as [|[k x] m IH]; cbn; [tauto|]. intros ND [H|H].
      - inversion H; subst. rewrite bq_refl. reflexivity.
      - apply NoDup_cons_iff in ND. destruct ND as [Hn ND]. rewrite bq_neq; [auto|].
        intros ->. apply Hn. apply (in_map fst) in H. exact H.
    Qed.

    Lemma im_get_app m m' r :
      im_get (m ++ m') r = match im_get m r with Some v => Some v | None => im_get m' r end.
    Proof.
      induction m as [|[k x] m IH]; cbn; [reflexivity|]. destruct (beq k r); [reflexivity|exact IH].
    Qed.

    (** [IndexMap::insert] *)
    Lemma im_get_insert m k v r :
      im_get (im_insert m k v) r = if beq k r then Some v else im_get m r.
    Proof.
      induction m as [|[k' v'] m IH]; cbn; [reflexivity|]. destruct (beq k' k) eqn:E; cbn.
      - apply bq_true in E. subst k'. destruct (beq k r); reflexivity.
      - rewrite IH. destruct (beq k r) eqn:E2; [|reflexivity].
        apply bq_true in E2. subst r. rewrite E. reflexivity.
    Qed.
    Lemma im_insert_keys m k v : map fst (im_insert m k v) = upsert_keys k (map fst m).
    Proof.
      induction m as [|[k' v'] m IH]; cbn [BlockDataModel.im_insert map fst]; [reflexivity|].
      unfold upsert_keys in *. rewrite mem_cons, (bq_sym k k'). destruct (beq k' k); cbn [orb map fst]; [reflexivity|].
      rewrite IH. destruct (mem k (map fst m)); reflexivity.
    Qed.
    Lemma im_insert_notin m k v : ~ In k (map fst m) -> im_insert m k v = m ++ [(k, v)].
    Proof.
      induction m as [|[k' v'] m IH]; cbn; intros H; [reflexivity|].
      rewrite bq_neq by tauto. f_equal. apply IH. tauto.
    Qed.

    (** [.collect::<IndexMap<_, _>>()]: a loop of inserts *)
    Local Notation inserts l acc :=
      (fold_left (fun m0 (kv : B * V) => im_insert m0 (fst kv) (snd kv)) l acc).

    Lemma im_collect_acc l : forall acc : list (B * V), NoDup (map fst (acc ++ l)) ->
      inserts l acc = acc ++ l.
    Proof.
      induction l as [|[k v] l IH]; intros acc ND; cbn.
      - rewrite app_nil_r. reflexivity.
      - rewrite im_insert_notin.
        + rewrite IH; rewrite <- app_assoc; [reflexivity|exact ND].
        + rewrite map_app in ND. cbn in ND. apply NoDup_remove_2 in ND.
          intros H. apply ND. apply in_or_app. left. exact H.
    Qed.
    Lemma im_collect_nodup_id (l : list (B * V)) : NoDup (map fst l) -> im_collect l = l.
    Proof. intros ND. unfold BlockDataModel.im_collect. rewrite im_collect_acc; [reflexivity|exact ND]. Qed.

    Lemma inserts_get l : forall (acc : list (B * V)) r,
      im_get (inserts l acc) r = im_get (rev l ++ acc) r.
    Proof.
      induction l as [|[k v] l IH]; intros acc r; [reflexivity|]. cbn [fold_left rev fst snd].
      rewrite IH, <- app_assoc, !(im_get_app (rev l)), im_get_insert. reflexivity.
    Qed.

    Lemma im_collect_nodup (l : list (B * V)) : NoDup (map fst (im_collect l)).
    Proof.
      apply (fold_left_inv (fun m => NoDup (map fst m))); [|constructor].
      intros m kv ND. rewrite im_insert_keys. apply upsert_keys_nodup, ND.
    Qed.
    Lemma im_collect_In (l : list (B * V)) k v :
      In (k, v) (im_collect l) <-> im_get (rev l) k = Some v.
    Proof.
      rewrite <- (app_nil_r (rev l)), <- inserts_get.
      split; [apply im_get_unique, im_collect_nodup|apply im_get_In].
    Qed.
  End Get.

  (** * [entry(k).or_default().extend(xs)] *)
  Definition getd (m : list (B * list B)) (r : B) : list B :=
    match im_get m r with Some l => l | None => [] end.

  Lemma im_get_extend m k xs r :
    im_get (im_extend m k xs) r = if beq k r then Some (getd m r ++ xs) else im_get m r.
  Proof.
    unfold getd. induction m as [|[k' v] m IH]; cbn.
    - destruct (beq k r); reflexivity.
    - destruct (beq k' k) eqn:E1.
      + apply bq_true in E1. subst k'. cbn. destruct (beq k r); reflexivity.
      + cbn. rewrite IH. destruct (beq k r) eqn:E2.
        * apply bq_true in E2. subst r. rewrite E1. reflexivity.
        * destruct (beq k' r); reflexivity.
  Qed.

  Lemma im_extend_keys m k xs : map fst (im_extend m k xs) = upsert_keys k (map fst m).
  Proof.
    induction m as [|[k' v] m IH]; cbn [BlockDataModel.im_extend map fst]; [reflexivity|].
    unfold upsert_keys in *. rewrite mem_cons, (bq_sym k k'). destruct (beq k' k); cbn [orb map fst]; [reflexivity|].
    rewrite IH. destruct (mem k (map fst m)); reflexivity.
  Qed.

  Section Fold.
    Variable X : Type.
    Variable key : X -> B.
    Variable val : X -> list B.
    Local Notation gfold m l := (fold_left (fun m0 d => im_extend m0 (key d) (val d)) l m).
    (** what a loop of [extend]s puts under [r] *)
    Definition gcol (r : B) (l : list X) : list B :=
      flat_map (fun d => if beq (key d) r then val d else []) l.

    Lemma gcol_cons r d l : gcol r (d :: l) = (if beq (key d) r then val d else []) ++ gcol r l.
    Proof. reflexivity. Qed.

    Lemma gcol_nomem r l : mem r (map key l) = false -> gcol r l = [].
    Proof.
      induction l as [|d l IH]; [reflexivity|]. cbn [map]. rewrite mem_cons, gcol_cons.
      intros H. apply orb_false_elim in H. destruct H as [H1 H2].
      rewrite bq_sym in H1. rewrite H1. cbn. auto.
    Qed.

    Lemma gcol_nil_inv r l : gcol r l = [] -> forall d, In d l -> beq (key d) r = true -> val d = [].
    Proof.
      induction l as [|a l IH]; [intros _ d []|]. rewrite gcol_cons. intros E d [H|H] Hb.
      - subst a. rewrite Hb in E. apply app_eq_nil in E. tauto.
      - apply app_eq_nil in E. destruct E as [_ E]. eauto.
    Qed.

    Lemma gfold_get l : forall m r,
      im_get (gfold m l) r = if mem r (map key l) then Some (getd m r ++ gcol r l) else im_get m r.
    Proof.
      induction l as [|d l IH]; intros m r.
      - reflexivity.
      - cbn [fold_left map]. rewrite IH, mem_cons, gcol_cons. unfold getd at 1.
        rewrite im_get_extend. rewrite (bq_sym r (key d)).
        destruct (beq (key d) r) eqn:E; destruct (mem r (map key l)) eqn:M.
        + cbn. rewrite <- app_assoc. reflexivity.
        + rewrite (gcol_nomem _ _ M). cbn. rewrite app_nil_r. reflexivity.
        + reflexivity.
        + reflexivity.
    Qed.

    Lemma gfold_keys_In l : forall m r,
      In r (map fst (gfold m l)) <-> In r (map fst m) \/ In r (map key l).
    Proof.
      induction l as [|d l IH]; intros m r; cbn [fold_left map].
      - cbn. tauto.
      - rewrite IH, im_extend_keys, upsert_keys_In. cbn [In]. intuition congruence.
    Qed.

    Lemma gfold_nodup l m : NoDup (map fst m) -> NoDup (map fst (gfold m l)).
    Proof.
      apply (fold_left_inv (fun m => NoDup (map fst m))).
      intros m0 d ND. rewrite im_extend_keys. apply upsert_keys_nodup, ND.
    Qed.
  End Fold.

  Variable ltb : B -> B -> bool.
  Local Notation ins_key := (ins_key B ltb).
  Local Notation sort_keys := (sort_keys B ltb).
  Local Notation sorted_ids := (sorted_ids B ltb).
  Hypothesis Hltb : LtbSpec B ltb.

  Lemma lt_irr a : ltb a a = false.
  Proof. apply Hltb. Qed.
  Lemma lt_trans a b c : ltb a b = true -> ltb b c = true -> ltb a c = true.
  Proof. destruct Hltb as (_ & H & _). apply H. Qed.
  Lemma lt_total a b : a <> b -> ltb a b = false -> ltb b a = true.
  Proof.
    destruct Hltb as (_ & _ & H). intros Hn H1. destruct (ltb b a) eqn:E; [reflexivity|].
    exfalso. apply Hn. apply H; assumption.
  Qed.

  Lemma sorted_ids_nodup l : sorted_ids l -> NoDup l.
  Proof.
    unfold BlockDataSpec.sorted_ids. induction 1 as [|a l S IH F]; constructor; [|exact IH].
    intros H. rewrite Forall_forall in F. specialize (F a H). rewrite lt_irr in F. discriminate.
  Qed.

  Section Sort.
    Variable V : Type.
    Implicit Types m : list (B * V).

    Lemma sort_keys_cons kv m : sort_keys (kv :: m) = ins_key kv (sort_keys m).
    Proof. reflexivity. Qed.

    Lemma ins_key_perm kv m : Permutation (kv :: m) (ins_key kv m).
    Proof.
      induction m as [|kv' m IH]; cbn; [apply Permutation_refl|].
      destruct (ltb (fst kv') (fst kv)); [|apply Permutation_refl].
      eapply perm_trans; [apply perm_swap|]. apply perm_skip. exact IH.
    Qed.
    Lemma sort_keys_perm m : Permutation m (sort_keys m).
    Proof.
      induction m as [|kv m IH]; [constructor|]. rewrite sort_keys_cons.
      eapply perm_trans; [|apply ins_key_perm]. apply perm_skip; exact IH.
    Qed.

    Lemma ins_key_get kv m r :
      im_get (ins_key kv m) r = if beq (fst kv) r then Some (snd kv) else im_get m r.
    Proof.
      destruct kv as [k v]. cbn [fst snd]. induction m as [|[k' v'] m IH].
      - reflexivity.
      - cbn. destruct (ltb k' k) eqn:L.
        + cbn. rewrite IH. destruct (beq k' r) eqn:E1; [|reflexivity].
          destruct (beq k r) eqn:E2; [|reflexivity]. apply bq_true in E1, E2. subst.
          rewrite lt_irr in L. discriminate.
        + reflexivity.
    Qed.
    Lemma sort_keys_get m r : im_get (sort_keys m) r = im_get m r.
    Proof.
      induction m as [|[k v] m IH]; [reflexivity|].
      rewrite sort_keys_cons, ins_key_get, IH. reflexivity.
    Qed.

    Lemma ins_key_sorted kv m : sorted_ids (map fst m) -> ~ In (fst kv) (map fst m) ->
      sorted_ids (map fst (ins_key kv m)).
    Proof.
      unfold BlockDataSpec.sorted_ids. induction m as [|kv' m IH]; cbn; intros S Hn.
      - constructor; constructor.
      - apply StronglySorted_inv in S. destruct S as [S F].
        destruct (ltb (fst kv') (fst kv)) eqn:L; cbn.
        + constructor.
          * apply IH; tauto.
          * rewrite Forall_forall in F |- *. intros x Hx.
            apply (Permutation_in (l' := fst kv :: map fst m)) in Hx;
              [|apply Permutation_sym; apply (Permutation_map fst (ins_key_perm kv m))].
            destruct Hx as [<-|Hx]; [exact L|apply F; exact Hx].
        + assert (Lt : ltb (fst kv) (fst kv') = true).
          { apply lt_total; [intros E; apply Hn; left; exact E|exact L]. }
          constructor.
          * constructor; assumption.
          * constructor; [exact Lt|]. rewrite Forall_forall in F |- *. intros x Hx.
            eapply lt_trans; [exact Lt|apply F; exact Hx].
    Qed.
    Lemma sort_keys_sorted m : NoDup (map fst m) -> sorted_ids (map fst (sort_keys m)).
    Proof.
      induction m as [|kv m IH]; intros ND.
      - constructor.
      - cbn [map] in ND. apply NoDup_cons_iff in ND. destruct ND as [Hn ND].
        rewrite sort_keys_cons. apply ins_key_sorted; [auto|].
        intros H. apply Hn. eapply Permutation_in; [|exact H].
        apply Permutation_sym, Permutation_map, sort_keys_perm.
    Qed.
    Lemma sort_keys_nodup m : NoDup (map fst m) -> NoDup (map fst (sort_keys m)).
    Proof. intros ND. apply sorted_ids_nodup, sort_keys_sorted, ND. Qed.

    Lemma sorted_ext m1 m2 : sorted_ids (map fst m1) -> sorted_ids (map fst m2) ->
      (forall r, im_get m1 r = im_get m2 r) -> m1 = m2.
    Proof.
      unfold BlockDataSpec.sorted_ids. revert m2.
      induction m1 as [|[k1 v1] m1 IH]; intros [|[k2 v2] m2] S1 S2 H.
      - reflexivity.
      - specialize (H k2). cbn in H. rewrite bq_refl in H. discriminate.
      - specialize (H k1). cbn in H. rewrite bq_refl in H. discriminate.
      - cbn [map fst] in S1, S2. apply StronglySorted_inv in S1, S2.
        destruct S1 as [S1 F1], S2 as [S2 F2]. rewrite Forall_forall in F1, F2.
        assert (K : k1 = k2).
        { destruct (beq k2 k1) eqn:E; [apply bq_true in E; auto|].
          destruct (beq k1 k2) eqn:E'; [apply bq_true in E'; auto|].
          exfalso.
          pose proof (H k1) as A. cbn in A. rewrite bq_refl, E in A. symmetry in A.
          apply get_Some_key in A. apply F2 in A.
          pose proof (H k2) as A2. cbn in A2. rewrite bq_refl, E' in A2.
          apply get_Some_key in A2. apply F1 in A2.
          pose proof (lt_trans _ _ _ A A2) as C. rewrite lt_irr in C. discriminate. }
        subst k2.
        assert (Vv : v1 = v2). { specialize (H k1). cbn in H. rewrite bq_refl in H. congruence. }
        subst v2. f_equal. apply IH; auto. intros r.
        destruct (beq k1 r) eqn:E.
        + apply bq_true in E. subst r.
          rewrite (im_get_notin _ m1 k1), (im_get_notin _ m2 k1); [reflexivity| |].
          * intros X. apply F2 in X. rewrite lt_irr in X. discriminate.
          * intros X. apply F1 in X. rewrite lt_irr in X. discriminate.
        + specialize (H r). cbn in H. rewrite E in H. exact H.
    Qed.

    Lemma sort_keys_sorted_id m : sorted_ids (map fst m) -> sort_keys m = m.
    Proof.
      intros S. apply sorted_ext; [apply sort_keys_sorted, sorted_ids_nodup, S|exact S|apply sort_keys_get].
    Qed.
  End Sort.

  Variable Dp : Type.
  Variable encS : B -> B.
  Variable encD : Dp -> B.

  Local Notation push_subs := (push_subs B beq encS).
  Local Notation add_deposits := (add_deposits B beq Dp encD).
  Local Notation build_group := (build_group B beq ltb Dp encS encD).
  Local Notation commit_group := (commit_group B beq ltb Dp encS encD).
  Local Notation seq_of := (seq_of B beq encS).
  Local Notation dep_of := (dep_of B beq Dp encD).
  Local Notation expected := (expected B beq Dp encS encD).
  Local Notation touched := (touched B beq Dp).

  Lemma seq_of_gcol r subs : seq_of r subs = gcol (B * B) fst (fun s => [encS (snd s)]) r subs.
  Proof.
    unfold BlockDataSpec.seq_of. induction subs as [|s subs IH]; [reflexivity|].
    rewrite gcol_cons. cbn [filter]. destruct (beq (fst s) r); cbn; rewrite IH; reflexivity.
  Qed.
  Lemma seq_of_nomem r subs : mem r (map fst subs) = false -> seq_of r subs = [].
  Proof. rewrite seq_of_gcol. apply gcol_nomem. Qed.
  Lemma dep_of_gcol r deps : dep_of r deps = gcol _ fst (fun d => map encD (snd d)) r deps.
  Proof. reflexivity. Qed.
  Lemma dep_of_nomem r deps : mem r (map fst deps) = false -> dep_of r deps = [].
  Proof. rewrite dep_of_gcol. apply gcol_nomem. Qed.

  Lemma push_subs_get subs r :
    im_get (push_subs subs) r = if mem r (map fst subs) then Some (seq_of r subs) else None.
  Proof. rewrite seq_of_gcol. exact (gfold_get (B * B) fst (fun s => [encS (snd s)]) subs [] r). Qed.
  Lemma push_subs_nodup subs : NoDup (map fst (push_subs subs)).
  Proof. apply (gfold_nodup (B * B) fst (fun s => [encS (snd s)]) subs []). constructor. Qed.

  Lemma add_deposits_get m deps r :
    im_get (add_deposits m deps) r
    = if mem r (map fst deps) then Some (getd m r ++ dep_of r deps) else im_get m r.
  Proof. rewrite dep_of_gcol. exact (gfold_get _ fst (fun d => map encD (snd d)) deps m r). Qed.
  Lemma add_deposits_nodup m deps : NoDup (map fst m) -> NoDup (map fst (add_deposits m deps)).
  Proof. exact (gfold_nodup _ fst (fun d => map encD (snd d)) deps m). Qed.

  Lemma grouped_get m subs deps r : (forall r, im_get m r = im_get (push_subs subs) r) ->
    im_get (add_deposits m deps) r
    = if touched r subs deps then Some (expected r subs deps) else None.
  Proof.
    intros Hm. rewrite add_deposits_get. unfold getd. rewrite Hm, push_subs_get.
    unfold BlockDataSpec.touched, BlockDataSpec.expected.
    destruct (mem r (map fst subs)) eqn:M1; destruct (mem r (map fst deps)) eqn:M2; cbn [orb].
    - reflexivity.
    - rewrite (dep_of_nomem _ _ M2), app_nil_r. reflexivity.
    - rewrite (seq_of_nomem _ _ M1). reflexivity.
    - reflexivity.
  Qed.

  Lemma build_group_get subs deps r :
    im_get (build_group subs deps) r
    = if touched r subs deps then Some (expected r subs deps) else None.
  Proof.
    unfold BlockDataModel.build_group. rewrite sort_keys_get. apply grouped_get. reflexivity.
  Qed.

  Lemma build_group_sorted subs deps : sorted_ids (map fst (build_group subs deps)).
  Proof. apply sort_keys_sorted, add_deposits_nodup, push_subs_nodup. Qed.

  Lemma build_group_nodup subs deps : NoDup (map fst (build_group subs deps)).
  Proof. apply sorted_ids_nodup, build_group_sorted. Qed.

  Lemma commit_group_eq subs deps : commit_group subs deps = build_group subs deps.
  Proof.
    apply sorted_ext.
    - apply sort_keys_sorted, add_deposits_nodup, sort_keys_nodup, push_subs_nodup.
    - apply build_group_sorted.
    - intros r. rewrite build_group_get. unfold BlockDataModel.commit_group.
      rewrite sort_keys_get. apply grouped_get. intros r'. apply sort_keys_get.
  Qed.

  Lemma build_group_key subs deps r :
    In r (map fst (build_group subs deps)) <-> touched r subs deps = true.
  Proof.
    split; intros H.
    - apply key_get_Some in H. destruct H as [v H].
      rewrite build_group_get in H. destruct (touched r subs deps); [reflexivity|discriminate].
    - apply (get_Some_key _ _ r (expected r subs deps)). rewrite build_group_get, H. reflexivity.
  Qed.

  Lemma build_group_keys subs deps r :
    In r (map fst (build_group subs deps)) <-> In r (map fst subs) \/ In r (map fst deps).
  Proof. rewrite build_group_key, <- !mem_In. apply orb_true_iff. Qed.

  Lemma dep_of_perm r deps deps' : Permutation deps deps' -> NoDup (map fst deps) ->
    dep_of r deps = dep_of r deps'.
  Proof.
    induction 1 as [|x l l' P IH|x y l|l l' l'' P1 IH1 P2 IH2]; intros ND.
    - reflexivity.
    - cbn in ND |- *. apply NoDup_cons_iff in ND. f_equal. apply IH. tauto.
    - cbn in ND |- *. apply NoDup_cons_iff in ND. destruct ND as [Hn _].
      destruct (beq (fst y) r) eqn:E1; destruct (beq (fst x) r) eqn:E2; cbn; try reflexivity.
      + apply bq_true in E1, E2. exfalso. apply Hn. left. congruence.
    - rewrite IH1; [|exact ND]. apply IH2. eapply Permutation_NoDup; [|exact ND].
      apply Permutation_map. exact P1.
  Qed.

  Lemma group_dep_order_sec : stmt_group_dep_order B beq ltb Dp encS encD.
  Proof.
    intros _ _ subs deps deps' P ND.
    apply sorted_ext; [apply build_group_sorted|apply build_group_sorted|].
    intros r. rewrite !build_group_get.
    unfold BlockDataSpec.touched, BlockDataSpec.expected.
    rewrite (mem_perm r _ _ (Permutation_map fst P)), (dep_of_perm r _ _ P ND). reflexivity.
  Qed.

  Lemma ids_with_data_sec : stmt_ids_with_data B beq Dp encS encD.
  Proof.
    intros _ subs deps Hd r. unfold BlockDataSpec.touched, BlockDataSpec.expected. split.
    - intros H E. apply app_eq_nil in E. destruct E as [E1 E2].
      apply orb_true_iff in H. destruct H as [H|H]; apply mem_In, in_map_iff in H;
        destruct H as [x [Hx Hin]].
      + rewrite seq_of_gcol in E1.
        pose proof (gcol_nil_inv _ _ _ _ _ E1 x Hin) as Z. rewrite Hx, bq_refl in Z.
        specialize (Z eq_refl). cbn in Z. discriminate.
      + rewrite dep_of_gcol in E2. pose proof (gcol_nil_inv _ _ _ _ _ E2 x Hin) as Z.
        rewrite Hx, bq_refl in Z. specialize (Z eq_refl). cbn in Z. apply map_eq_nil in Z.
        exact (Hd x Hin Z).
    - intros H. destruct (mem r (map fst subs)) eqn:M1; [reflexivity|].
      destruct (mem r (map fst deps)) eqn:M2; [reflexivity|]. exfalso. apply H.
      rewrite (seq_of_nomem _ _ M1), (dep_of_nomem _ _ M2). reflexivity.
  Qed.
End Group.

Lemma group_exact B beq ltb Dp encS encD : stmt_group_exact B beq ltb Dp encS encD.
Proof.
  intros Hb Hl subs deps m. split; [apply build_group_sorted; assumption|].
  split; [intros r; apply build_group_key; assumption|].
  split; [intros r; apply build_group_get; assumption|apply commit_group_eq; assumption].
Qed.

Lemma ids_with_data B beq Dp encS encD : stmt_ids_with_data B beq Dp encS encD.
Proof. intros Hb. apply ids_with_data_sec; assumption. Qed.

Lemma group_dep_order B beq ltb Dp encS encD : stmt_group_dep_order B beq ltb Dp encS encD.
Proof. intros Hb Hl. apply group_dep_order_sec; assumption. Qed.

Check (group_exact : forall B beq ltb Dp encS encD, stmt_group_exact B beq ltb Dp encS encD).
Check (ids_with_data : forall B beq Dp encS encD, stmt_ids_with_data B beq Dp encS encD).
Check (group_dep_order : forall B beq ltb Dp encS encD, stmt_group_dep_order B beq ltb Dp encS encD).
Print Assumptions group_exact.
Print Assumptions ids_with_data.
Print Assumptions group_dep_order.
