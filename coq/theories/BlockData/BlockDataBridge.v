(** C07 / C17 bridge -- whatever the faithful decoders of Decode/DecodeModel.v (C17) accept, the
    boolean receivers of BlockData/BlockDataModel.v (C07) accept on the abstracted value (the value
    with everything dropped that the C07 records do not keep: chain id, height, time, proposer
    address, upgrade change hashes, extended commit info), so the C07 theorems hold of what the
    decoders accept; the corollaries at the end transfer some. *)
From Astria Require Import Decode.DecodeSpec Decode.DecodeProofs.
From Astria Require Import BlockData.BlockDataModel BlockData.BlockDataSpec BlockData.BlockDataRecv
  BlockData.BlockDataTamper.

Section Bridge.
  Variable B : Type.
  Variable blen : B -> N.
  Variable beq : B -> B -> bool.
  Variable cat : B -> B -> B.
  Variable sha leafH : B -> B.
  Variable nodeH : B -> B -> B.
  Variable emptyH : B.
  Variable cid_ok : B -> bool.
  Variable eci_parse : B -> eci_res.

  Local Notation seq_block_from_raw :=
    (seq_block_from_raw B blen beq cat sha leafH nodeH emptyH cid_ok eci_parse).
  Local Notation filtered_from_raw :=
    (filtered_from_raw B blen beq cat sha leafH nodeH emptyH cid_ok eci_parse).
  Local Notation meta_from_raw := (meta_from_raw B blen beq sha leafH nodeH emptyH cid_ok eci_parse).
  Local Notation rollup_data_from_raw := (rollup_data_from_raw B blen).
  Local Notation recv_full := (recv_full B beq blen cat sha leafH nodeH emptyH).
  Local Notation recv_filtered := (recv_filtered B beq blen cat sha leafH nodeH emptyH).
  Local Notation recv_meta := (recv_meta B beq blen sha leafH nodeH emptyH).
  Local Notation blob_ok := (blob_ok B blen).
  Local Notation pverifies := (pverifies B beq nodeH).
  Local Notation verifies := (verifies B beq nodeH).
  Local Notation entry_wf := (entry_wf B blen).
  Local Notation entry_verifies := (entry_verifies B beq cat leafH nodeH emptyH).
  Local Notation collect := (collect B beq).
  Local Notation rollup_leaf := (BlockDataModel.rollup_leaf B cat leafH nodeH emptyH).
  Local Notation BeqSpec := (BlockDataSpec.BeqSpec B beq).
  Local Notation hdr_accepted := (hdr_accepted B beq blen sha leafH nodeH emptyH).

  (** * the abstraction: C17 checked values -> C07 records *)
  Definition abs_entry (rt : RollupTxs B) : entry B :=
    {| BlockDataModel.e_id := r_id B rt;
       BlockDataModel.e_txs := r_txs B rt;
       BlockDataModel.e_proof := r_proof B rt |}.

  Definition abs_entries (m : list (B * RollupTxs B)) : list (entry B) :=
    map (fun kv => abs_entry (snd kv)) m.

  Definition abs_full (v : SeqBlock B) : block B :=
    {| b_hash := s_bh B v; b_rtr := h_rtr B (s_hdr B v); b_dh := h_dh B (s_hdr B v);
       b_entries := map (fun kv => abs_entry (snd kv)) (s_rts B v);
       b_rtp := s_rtp B v; b_rip := s_rip B v |}.

  Definition abs_filtered (v : Filtered B) : filtered B :=
    {| f_hash := f_bh B v; f_rtr := h_rtr B (f_hdr B v); f_dh := h_dh B (f_hdr B v);
       f_entries := map (fun kv => abs_entry (snd kv)) (f_rts B v);
       BlockDataModel.f_rtp := DecodeModel.f_rtp B v;
       BlockDataModel.f_all := DecodeModel.f_all B v;
       BlockDataModel.f_rip := DecodeModel.f_rip B v |}.

  Definition abs_meta (v : Meta B) : meta B :=
    {| m_hash := m_bh B v; m_rtr := h_rtr B (m_hdr B v); m_dh := h_dh B (m_hdr B v);
       BlockDataModel.m_ids := DecodeModel.m_ids B v;
       BlockDataModel.m_rtp := DecodeModel.m_rtp B v;
       BlockDataModel.m_rip := DecodeModel.m_rip B v |}.

  Definition abs_blob (v : RollupData B) : blob B :=
    {| bl_hash := d_bh B v; bl_id := d_id B v; bl_txs := d_txs B v; bl_proof := d_proof B v |}.

  (** * the two developments use the same terms *)
  Lemma proof_wf_same (p : proof B) : BlockDataModel.proof_wf B p = DecodeModel.proof_wf B p.
  Proof. reflexivity. Qed.

  Lemma rollup_leaf_same id txs :
    rollup_leaf id txs = DecodeModel.rollup_leaf B cat leafH nodeH emptyH id txs.
  Proof. reflexivity. Qed.

  Lemma ids_root_same ids :
    BlockDataModel.ids_root B leafH nodeH emptyH ids = DecodeModel.ids_root B leafH nodeH emptyH ids.
  Proof. reflexivity. Qed.

  Lemma pverifies_split (p : proof B) lh root :
    pverifies p lh root = DecodeModel.proof_wf B p && verifies p lh root.
  Proof. reflexivity. Qed.

  Lemma pverifies_of (p : proof B) lh root :
    DecodeModel.proof_wf B p = true -> verifies p lh root = true -> pverifies p lh root = true.
  Proof. intros H1 H2. rewrite pverifies_split, H1, H2. reflexivity. Qed.

  Lemma entry_wf_abs rt : entry_wf (abs_entry rt) = rt_wf B blen rt.
  Proof. reflexivity. Qed.

  Lemma entry_verifies_abs rtr rt :
    entry_verifies rtr (abs_entry rt) =
    DecodeModel.proof_wf B (r_proof B rt) &&
    verifies (r_proof B rt) (DecodeModel.rollup_leaf B cat leafH nodeH emptyH (r_id B rt) (r_txs B rt)) rtr.
  Proof. reflexivity. Qed.

  Lemma abs_entries_ids (m : list (B * RollupTxs B)) :
    Forall (fun kv => fst kv = r_id B (snd kv)) m ->
    map BlockDataModel.e_id (abs_entries m) = map fst m.
  Proof.
    unfold abs_entries. induction 1 as [|kv r Hk _ IH]; cbn [map]; [reflexivity|].
    rewrite IH. cbn [abs_entry BlockDataModel.e_id]. rewrite <- Hk. reflexivity.
  Qed.

  Lemma abs_entries_data_root (m : list (B * RollupTxs B)) :
    Forall (fun kv => fst kv = r_id B (snd kv)) m ->
    data_root B cat leafH nodeH emptyH (map (entry_data B) (abs_entries m)) =
    rollup_txs_root B cat leafH nodeH emptyH m.
  Proof.
    intros H. unfold data_root, rollup_txs_root, mroot, tree_root. f_equal.
    unfold abs_entries. induction H as [|kv r Hk _ IH]; cbn [map]; [reflexivity|].
    rewrite IH. f_equal. unfold entry_data, abs_entry.
    cbn [fst snd BlockDataModel.e_id BlockDataModel.e_txs]. rewrite <- Hk. reflexivity.
  Qed.

  Lemma abs_entries_unique (m : list (B * RollupTxs B)) :
    imap_inv B m -> unique_ids B (abs_entries m).
  Proof.
    intros [Hids Hnd]. unfold unique_ids. rewrite abs_entries_ids by exact Hids. exact Hnd.
  Qed.

  Lemma abs_entries_wf (m : list (B * RollupTxs B)) :
    vals_ok B (fun rt => rt_wf B blen rt = true) m -> forallb entry_wf (abs_entries m) = true.
  Proof.
    unfold vals_ok, abs_entries. induction 1 as [|kv r Hk _ IH]; cbn [map forallb]; [reflexivity|].
    rewrite IH, entry_wf_abs, Hk. reflexivity.
  Qed.

  Lemma abs_entries_verify rtr (m : list (B * RollupTxs B)) :
    vals_ok B (fun rt => rt_wf B blen rt = true) m ->
    rollup_proofs_verify B beq cat leafH nodeH emptyH rtr m = true ->
    forallb (entry_verifies rtr) (abs_entries m) = true.
  Proof.
    unfold vals_ok, abs_entries, rollup_proofs_verify.
    induction 1 as [|kv r Hk _ IH]; cbn [map forallb]; intros Hv; [reflexivity|].
    apply andb_prop in Hv. destruct Hv as [Hv Hr].
    unfold rt_wf in Hk. apply andb_prop in Hk. destruct Hk as [_ Hwf].
    rewrite (IH Hr), entry_verifies_abs, Hwf, Hv. reflexivity.
  Qed.

  Lemma hdr_bridge bh h (rtp rip : proof B) ids :
    (blen bh =? 32) = true -> header_checks B blen cid_ok h = true ->
    DecodeModel.proof_wf B rtp = true -> DecodeModel.proof_wf B rip = true ->
    verifies rtp (leafH (sha (h_rtr B h))) (h_dh B h) = true ->
    verifies rip (leafH (sha (DecodeModel.ids_root B leafH nodeH emptyH ids))) (h_dh B h) = true ->
    forallb (len32 B blen) ids = true ->
    hdr_accepted bh (h_rtr B h) (h_dh B h) rtp rip ids.
  Proof.
    intros Hbh Hh W1 W2 V1 V2 L. unfold header_checks in Hh.
    repeat (apply andb_prop in Hh; let C := fresh "C" in destruct Hh as [Hh C]).
    repeat split; [|exact L|apply pverifies_of; assumption|apply pverifies_of; assumption].
    unfold hdr_ok, len32. rewrite Hbh, C1, C0. reflexivity.
  Qed.

  (** the rollup ids of an accepted block are pairwise distinct (the decoders collect into an
      [IndexMap]): the side condition [unique_ids] of the C07 tamper theorems *)

  (** [SequencerBlock::try_from_raw] *)
  Lemma full_accepted (Hb : BeqSpec) r v : seq_block_from_raw r = ROk v ->
    recv_full (abs_full v) = true /\ unique_ids B (b_entries (abs_full v)).
  Proof.
    intros H. apply seq_block_ok in H.
    destruct H as [Hc Hrtp Hrip Hvals Hinv _ _].
    unfold seq_block_checks in Hc. cbv zeta in Hc.
    repeat (apply andb_prop in Hc; let C := fresh "C" in destruct Hc as [Hc C]).
    specialize (Hinv Hb).
    pose proof (abs_entries_unique _ Hinv) as U. split; [|exact U].
    apply (recv_full_iff Hb). cbn [abs_full b_hash b_rtr b_dh b_entries b_rtp b_rip].
    fold (abs_entries (s_rts B v)). rewrite (collect_id Hb _ U).
    pose proof (abs_entries_wf _ Hvals) as W.
    split; [|split; [exact W|split; [exact (abs_entries_verify _ _ Hvals C0)|]]].
    - apply hdr_bridge; try assumption; [|apply wf_ids32, W].
      rewrite (abs_entries_ids _ (proj1 Hinv)). exact C1.
    - rewrite (abs_entries_data_root _ (proj1 Hinv)). apply pverifies_of; assumption.
  Qed.

  (** [FilteredSequencerBlock::try_from_raw] *)
  Lemma filtered_accepted (Hb : BeqSpec) r v : filtered_from_raw r = ROk v ->
    recv_filtered (abs_filtered v) = true /\ unique_ids B (f_entries (abs_filtered v)).
  Proof.
    intros H. apply filtered_ok in H.
    destruct H as [Hc Hrtp Hrip Hvals Hinv Hall _ _].
    unfold filtered_checks in Hc. cbv zeta in Hc.
    repeat (apply andb_prop in Hc; let C := fresh "C" in destruct Hc as [Hc C]).
    specialize (Hinv Hb).
    pose proof (abs_entries_unique _ Hinv) as U. split; [|exact U].
    apply recv_filtered_iff.
    cbn [abs_filtered f_hash f_rtr f_dh f_entries BlockDataModel.f_rtp BlockDataModel.f_all
         BlockDataModel.f_rip].
    fold (abs_entries (f_rts B v)). rewrite (collect_id Hb _ U).
    split; [|split; [exact (abs_entries_wf _ Hvals)|exact (abs_entries_verify _ _ Hvals C1)]].
    apply hdr_bridge; assumption.
  Qed.

  (** [SubmittedMetadata::try_from_raw] *)
  Lemma meta_accepted r v : meta_from_raw r = ROk v -> recv_meta (abs_meta v) = true.
  Proof.
    intros H. apply meta_ok in H.
    destruct H as [Hc Hrtp Hrip Hids _ _].
    unfold meta_checks in Hc. cbv zeta in Hc.
    repeat (apply andb_prop in Hc; let C := fresh "C" in destruct Hc as [Hc C]).
    apply recv_meta_iff.
    cbn [abs_meta m_hash m_rtr m_dh BlockDataModel.m_ids BlockDataModel.m_rtp BlockDataModel.m_rip].
    apply hdr_bridge; assumption.
  Qed.

  (** [SubmittedRollupData::try_from_raw] *)
  Lemma blob_accepted r v : rollup_data_from_raw r = ROk v -> blob_ok (abs_blob v) = true.
  Proof.
    intros H. apply rollup_data_ok in H. unfold rollup_data_checks in H.
    apply andb_prop in H. destruct H as [H Hp]. apply andb_prop in H. destruct H as [Hbh Hid].
    unfold BlockDataModel.blob_ok, len32. cbn [abs_blob bl_hash bl_id bl_proof].
    rewrite Hid, Hbh, proof_wf_same, Hp. reflexivity.
  Qed.
End Bridge.

Theorem bridge_full : forall B blen beq cat sha leafH nodeH emptyH cid_ok eci_parse,
  BlockDataSpec.BeqSpec B beq ->
  forall r v,
    seq_block_from_raw B blen beq cat sha leafH nodeH emptyH cid_ok eci_parse r = ROk v ->
    recv_full B beq blen cat sha leafH nodeH emptyH (abs_full B v) = true.
Proof. intros. eapply full_accepted; eassumption. Qed.

Theorem bridge_filtered : forall B blen beq cat sha leafH nodeH emptyH cid_ok eci_parse,
  BlockDataSpec.BeqSpec B beq ->
  forall r v,
    filtered_from_raw B blen beq cat sha leafH nodeH emptyH cid_ok eci_parse r = ROk v ->
    recv_filtered B beq blen cat sha leafH nodeH emptyH (abs_filtered B v) = true.
Proof. intros. eapply filtered_accepted; eassumption. Qed.

Theorem bridge_meta : forall B blen beq sha leafH nodeH emptyH cid_ok eci_parse,
  forall r v,
    meta_from_raw B blen beq sha leafH nodeH emptyH cid_ok eci_parse r = ROk v ->
    recv_meta B beq blen sha leafH nodeH emptyH (abs_meta B v) = true.
Proof. exact meta_accepted. Qed.

Theorem bridge_blob : forall B blen,
  forall r v, rollup_data_from_raw B blen r = ROk v -> blob_ok B blen (abs_blob B v) = true.
Proof. exact blob_accepted. Qed.

Theorem abs_full_unique : forall B blen beq cat sha leafH nodeH emptyH cid_ok eci_parse,
  BlockDataSpec.BeqSpec B beq ->
  forall r v,
    seq_block_from_raw B blen beq cat sha leafH nodeH emptyH cid_ok eci_parse r = ROk v ->
    unique_ids B (b_entries (abs_full B v)).
Proof. intros. eapply full_accepted; eassumption. Qed.

Theorem abs_filtered_unique : forall B blen beq cat sha leafH nodeH emptyH cid_ok eci_parse,
  BlockDataSpec.BeqSpec B beq ->
  forall r v,
    filtered_from_raw B blen beq cat sha leafH nodeH emptyH cid_ok eci_parse r = ROk v ->
    unique_ids B (f_entries (abs_filtered B v)).
Proof. intros. eapply filtered_accepted; eassumption. Qed.

(** an inclusion proof carried by an accepted filtered block binds exactly the rollup id and the
    data list of its entry: it verifies for no other (32-byte id, data) against the accepted
    rollup transactions root, short of an explicit hash collision *)
Theorem decoder_entry_binding : forall B blen beq cat sha leafH nodeH emptyH cid_ok eci_parse,
  BlockDataSpec.BeqSpec B beq -> CatInj B blen cat ->
  forall r v e,
    filtered_from_raw B blen beq cat sha leafH nodeH emptyH cid_ok eci_parse r = ROk v ->
    In e (f_entries (abs_filtered B v)) ->
    forall id' txs', blen id' = 32 ->
      pverifies B beq nodeH (BlockDataModel.e_proof e)
        (BlockDataModel.rollup_leaf B cat leafH nodeH emptyH id' txs')
        (f_rtr (abs_filtered B v)) = true ->
      (BlockDataModel.e_id e = id' /\ BlockDataModel.e_txs e = txs') \/
      Coll B sha leafH nodeH emptyH.
Proof.
  intros B blen beq cat sha leafH nodeH emptyH cid_ok eci_parse Hb Hc r v e H Hin id' txs' L' V'.
  destruct (filtered_accepted _ _ _ _ _ _ _ _ cid_ok eci_parse Hb r v H) as [R U].
  destruct (recv_filtered_entry Hb _ R U e Hin) as [V L].
  exact (entry_binding B beq blen cat sha leafH nodeH emptyH Hb Hc _ _ _ _ _ _ L L' V V').
Qed.

(** the same for the full sequencer block (the decoder audits the
    per-rollup proofs) *)
Theorem decoder_full_entry_binding : forall B blen beq cat sha leafH nodeH emptyH cid_ok eci_parse,
  BlockDataSpec.BeqSpec B beq -> CatInj B blen cat ->
  forall r v e,
    seq_block_from_raw B blen beq cat sha leafH nodeH emptyH cid_ok eci_parse r = ROk v ->
    In e (b_entries (abs_full B v)) ->
    forall id' txs', blen id' = 32 ->
      pverifies B beq nodeH (BlockDataModel.e_proof e)
        (BlockDataModel.rollup_leaf B cat leafH nodeH emptyH id' txs')
        (b_rtr (abs_full B v)) = true ->
      (BlockDataModel.e_id e = id' /\ BlockDataModel.e_txs e = txs') \/
      Coll B sha leafH nodeH emptyH.
Proof.
  intros B blen beq cat sha leafH nodeH emptyH cid_ok eci_parse Hb Hc r v e H Hin id' txs' L' V'.
  destruct (full_accepted _ _ _ _ _ _ _ _ cid_ok eci_parse Hb r v H) as [R U].
  destruct (recv_full_entry Hb _ R U e Hin) as [V L].
  exact (entry_binding B beq blen cat sha leafH nodeH emptyH Hb Hc _ _ _ _ _ _ L L' V V').
Qed.

(** Celestia: a decoded rollup blob that passes the conductor's audit against decoded metadata is
    bound to its rollup id and data *)
Theorem decoder_blob_binding : forall B blen beq cat sha leafH nodeH emptyH cid_ok eci_parse,
  BlockDataSpec.BeqSpec B beq -> CatInj B blen cat ->
  forall rm m rd d,
    meta_from_raw B blen beq sha leafH nodeH emptyH cid_ok eci_parse rm = ROk m ->
    rollup_data_from_raw B blen rd = ROk d ->
    audit_blob B beq cat leafH nodeH emptyH (abs_meta B m) (abs_blob B d) = true ->
    forall id' txs', blen id' = 32 ->
      pverifies B beq nodeH (d_proof B d)
        (BlockDataModel.rollup_leaf B cat leafH nodeH emptyH id' txs') (h_rtr B (m_hdr B m)) = true ->
      (d_id B d = id' /\ d_txs B d = txs') \/ Coll B sha leafH nodeH emptyH.
Proof.
  intros B blen beq cat sha leafH nodeH emptyH cid_ok eci_parse Hb Hc rm m rd d _ Hd A id' txs' L' V'.
  pose proof (blob_ok_len _ (blob_accepted B blen rd d Hd)) as L.
  exact (entry_binding B beq blen cat sha leafH nodeH emptyH Hb Hc _ _ _ _ _ _ L L' A V').
Qed.

(** every single tampering of a decoded filtered block that the C07 receiver accepts again
    leaves the data of every surviving entry, the id list and the roots as they were *)
Theorem decoder_filtered_tamper : forall B blen beq cat sha leafH nodeH emptyH cid_ok eci_parse,
  BlockDataSpec.BeqSpec B beq -> CatInj B blen cat ->
  forall r v t,
    filtered_from_raw B blen beq cat sha leafH nodeH emptyH cid_ok eci_parse r = ROk v ->
    recv_filtered B beq blen cat sha leafH nodeH emptyH (tamper_f B t (abs_filtered B v)) = true ->
    ((forall e, In e (collect B beq (f_entries (tamper_f B t (abs_filtered B v)))) ->
                In (entry_data B e) (map (entry_data B) (f_entries (abs_filtered B v)))) /\
     BlockDataModel.f_all (tamper_f B t (abs_filtered B v)) = BlockDataModel.f_all (abs_filtered B v) /\
     f_rtr (tamper_f B t (abs_filtered B v)) = f_rtr (abs_filtered B v) /\
     f_dh (tamper_f B t (abs_filtered B v)) = f_dh (abs_filtered B v)) \/
    Coll B sha leafH nodeH emptyH.
Proof.
  intros B blen beq cat sha leafH nodeH emptyH cid_ok eci_parse Hb Hc r v t H T.
  destruct (filtered_accepted _ _ _ _ _ _ _ _ cid_ok eci_parse Hb r v H) as [R U].
  exact (filtered_tamper B beq blen cat sha leafH nodeH emptyH Hb Hc _ t R U T).
Qed.

Theorem decoder_full_tamper : forall B blen beq cat sha leafH nodeH emptyH cid_ok eci_parse,
  BlockDataSpec.BeqSpec B beq -> CatInj B blen cat ->
  forall r v t,
    seq_block_from_raw B blen beq cat sha leafH nodeH emptyH cid_ok eci_parse r = ROk v ->
    recv_full B beq blen cat sha leafH nodeH emptyH (tamper_full B t (abs_full B v)) = true ->
    (map (entry_data B) (collect B beq (b_entries (tamper_full B t (abs_full B v))))
       = map (entry_data B) (b_entries (abs_full B v)) /\
     b_rtr (tamper_full B t (abs_full B v)) = b_rtr (abs_full B v) /\
     b_dh (tamper_full B t (abs_full B v)) = b_dh (abs_full B v)) \/
    Coll B sha leafH nodeH emptyH.
Proof.
  intros B blen beq cat sha leafH nodeH emptyH cid_ok eci_parse Hb Hc r v t H T.
  destruct (full_accepted _ _ _ _ _ _ _ _ cid_ok eci_parse Hb r v H) as [R U].
  exact (full_tamper B beq blen cat sha leafH nodeH emptyH Hb Hc _ t R U T).
Qed.

(** non-vacuity: on the toy instantiation of DecodeProofs.v the decoders accept a block, and the
    C07 receivers accept its abstraction (computed, independently of the theorems above) *)
Example bridge_toy_full :
  match Toy.seq_block_from_raw (Toy.block Toy.good_rollup_proof) with
  | ROk v => recv_full Toy.B Toy.beq Toy.blen Toy.cat Toy.sha Toy.leafH Toy.nodeH Toy.emptyH
               (abs_full Toy.B v) && negb (length (b_entries (abs_full Toy.B v)) =? 0)%nat
  | _ => false
  end = true.
Proof. vm_compute. reflexivity. Qed.

Example bridge_toy_filtered :
  match Toy.filtered_from_raw (Toy.filtered Toy.good_rollup_proof) with
  | ROk v => recv_filtered Toy.B Toy.beq Toy.blen Toy.cat Toy.sha Toy.leafH Toy.nodeH Toy.emptyH
               (abs_filtered Toy.B v) && negb (length (f_entries (abs_filtered Toy.B v)) =? 0)%nat
  | _ => false
  end = true.
Proof. vm_compute. reflexivity. Qed.

Example bridge_toy_meta :
  match Toy.meta_from_raw Toy.meta with
  | ROk v => recv_meta Toy.B Toy.beq Toy.blen Toy.sha Toy.leafH Toy.nodeH Toy.emptyH (abs_meta Toy.B v)
  | _ => false
  end = true.
Proof. vm_compute. reflexivity. Qed.

Print Assumptions bridge_full.
Print Assumptions bridge_filtered.
Print Assumptions bridge_meta.
Print Assumptions bridge_blob.
Print Assumptions decoder_entry_binding.
Print Assumptions decoder_full_entry_binding.
Print Assumptions decoder_blob_binding.
Print Assumptions decoder_filtered_tamper.
Print Assumptions decoder_full_tamper.
