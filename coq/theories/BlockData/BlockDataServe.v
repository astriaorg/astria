(** C07 -- the built block, its stored / filtered / Celestia forms and their receivers:
    proofs of [stmt_served_exact], [stmt_finalize_ok], [stmt_served_verifies].  The laws of the
    parameters are section hypotheses, arranged as in BlockDataGroup.v. *)
From Astria Require Import BlockData.BlockDataModel BlockData.BlockDataSpec BlockData.BlockDataGroup
  BlockData.BlockDataLists BlockData.BlockDataRecv.
From Astria Require Import Merkle.MerkleSpec.
From Astria Require Merkle.MerkleRootFull.

Section Serve.
  Variable B : Type.
  Variable beq ltb : B -> B -> bool.
  Variable cat : B -> B -> B.
  Variable sha leafH : B -> B.
  Variable nodeH : B -> B -> B.
  Variable emptyH zeroD : B.
  Variable Dp : Type.
  Variable encS : B -> B.
  Variable encD : Dp -> B.
  Variable blen : B -> N.

  Local Notation im_get := (im_get B beq).
  Local Notation mem := (mem B beq).
  Local Notation sort_keys := (sort_keys B ltb).
  Local Notation sort_ids := (sort_ids B ltb).
  Local Notation sorted_ids := (sorted_ids B ltb).
  Local Notation build_group := (build_group B beq ltb Dp encS encD).
  Local Notation finalize := (finalize B beq ltb cat sha leafH nodeH emptyH zeroD Dp encS encD).
  Local Notation tree_of := (tree_of B nodeH zeroD).
  Local Notation troot := (troot B emptyH).
  Local Notation root_of_leaves := (root_of_leaves B leafH nodeH emptyH zeroD).
  Local Notation rollup_leaves := (rollup_leaves B cat leafH nodeH emptyH zeroD).
  Local Notation rollup_tree := (rollup_tree B cat leafH nodeH emptyH zeroD).
  Local Notation get_proof := (get_proof B).
  Local Notation commitments := (commitments B beq ltb cat leafH nodeH emptyH zeroD Dp encS encD).
  Local Notation data_leaves := (data_leaves B sha).
  Local Notation expand := (expand B sha leafH nodeH emptyH zeroD).
  Local Notation try_build := (try_build B beq ltb cat leafH nodeH emptyH zeroD Dp encS encD).
  Local Notation mroot := (mroot B nodeH emptyH).
  Local Notation rollup_leaf := (rollup_leaf B cat leafH nodeH emptyH).
  Local Notation data_root := (data_root B cat leafH nodeH emptyH).
  Local Notation ids_root := (ids_root B leafH nodeH emptyH).
  Local Notation proof_wf := (proof_wf B).
  Local Notation pverifies := (pverifies B beq nodeH).
  Local Notation entry_verifies := (entry_verifies B beq cat leafH nodeH emptyH).
  Local Notation attach_proofs := (attach_proofs B).
  Local Notation keyed := (keyed B).
  Local Notation entry_data := (entry_data B).
  Local Notation find_entry := (find_entry B beq).
  Local Notation collect := (collect B beq).
  Local Notation stored_block := (stored_block B beq).
  Local Notation split := (split_celestia B).
  Local Notation touched := (touched B beq Dp).
  Local Notation size_ok := (size_ok B Dp).
  Local Notation BOUND := (N.to_nat (2 ^ 62)).

  Hypothesis Hbeq : BeqSpec B beq.
  Hypothesis Hltb : LtbSpec B ltb.
  Hypothesis Hlen : HashLen B blen leafH nodeH emptyH.

  Local Notation find_entry_id := (find_entry_id Hbeq).
  Local Notation find_entry_none := (find_entry_none Hbeq).
  Local Notation find_entry_unique := (find_entry_unique Hbeq).
  Local Notation find_entry_only := (find_entry_only Hbeq).
  Local Notation collect_id := (collect_id Hbeq).
  Local Notation collect_In := (collect_In Hbeq).
  Local Notation collect_incl := (collect_incl Hbeq).
  Local Notation collect_nodup_ids := (collect_nodup_ids Hbeq).
  Local Notation rollup_leaf_pre := (rollup_leaf_pre B cat leafH nodeH emptyH).

  Local Notation recv_full := (recv_full B beq blen cat sha leafH nodeH emptyH).
  Local Notation recv_filtered := (recv_filtered B beq blen cat sha leafH nodeH emptyH).
  Local Notation reconstruct := (reconstruct B beq cat leafH nodeH emptyH).
  Local Notation len32 := (len32 B blen).
  Local Notation entry_wf := (entry_wf B blen).
  Local Notation ids32 := (ids32 B blen Dp).

  Local Notation hdr_accepted := (hdr_accepted B beq blen sha leafH nodeH emptyH).
  Local Notation recv_full_iff := (recv_full_iff Hbeq).

  (** what the receivers need of a block; [finalize] builds such a one ([finalize_honest]) *)
  Definition honest_block (b : block B) : Prop :=
    hdr_accepted (b_hash b) (b_rtr b) (b_dh b) (b_rtp b) (b_rip b) (map e_id (b_entries b)) /\
    (forall e, In e (b_entries b) -> entry_wf e = true /\ entry_verifies (b_rtr b) e = true) /\
    b_rtr b = data_root (map entry_data (b_entries b)) /\
    sorted_ids (map e_id (b_entries b)).

  (** * the flat tree within the size bound (C08) *)
  Lemma construct_proof_wf t li p : construct_proof B t li = Some (Some p) -> proof_wf p = true.
  Proof.
    unfold construct_proof. cbv zeta.
    destruct (tlen B t =? 0) eqn:E0; [discriminate|].
    destruct (is_leaf_index_in_tree li (tlen B t)) eqn:E1; cbn [negb]; [|discriminate].
    unfold bind. destruct (leaf_index_to_tree_index li); [|discriminate].
    destruct (complete_root (tlen B t)); [|discriminate].
    destruct (proof_loop _ _ _ _ _ _ _); [|discriminate].
    intros H. inversion H; subst p. unfold BlockDataModel.proof_wf.
    cbn [leaf_index tree_size]. rewrite E0, E1. reflexivity.
  Qed.

  Lemma tree_root_ok lhs : (length lhs <= BOUND)%nat ->
    exists t, tree_of lhs = Some t /\ troot t = Some (mroot lhs).
  Proof. exact (MerkleRootFull.root_is_mth B nodeH emptyH zeroD lhs). Qed.

  Lemma root_of_leaves_ok leaves : (length leaves <= BOUND)%nat ->
    root_of_leaves leaves = Some (mroot (map leafH leaves)).
  Proof.
    intros H. unfold BlockDataModel.root_of_leaves.
    destruct (tree_root_ok (map leafH leaves)) as (t & E1 & E2); [rewrite map_length; exact H|].
    rewrite E1. cbn [bind]. exact E2.
  Qed.

  Lemma tree_proof_ok lhs t i d : (length lhs <= BOUND)%nat -> tree_of lhs = Some t ->
    nth_error lhs i = Some d ->
    exists p, get_proof t i = Some p /\ pverifies p d (mroot lhs) = true.
  Proof.
    intros Hl Ht Hn.
    destruct (MerkleRootFull.proof_complete B nodeH emptyH zeroD lhs t i d Hl Ht Hn)
      as (p & Hc & _ & Hli & Hts & Hr).
    exists p. split.
    - unfold BlockDataModel.get_proof. rewrite Hc. reflexivity.
    - unfold BlockDataModel.pverifies. rewrite (construct_proof_wf _ _ _ Hc). cbn [andb].
      unfold verify. rewrite Hr. cbn [bind]. unfold BlockDataModel.mroot.
      rewrite (bq_refl _ _ Hbeq). reflexivity.
  Qed.

  Lemma seq_of_len r subs : (length (seq_of B beq encS r subs) <= length subs)%nat.
  Proof. unfold seq_of. rewrite map_length. apply filter_len. Qed.

  Lemma dep_of_len r deps :
    (length (dep_of B beq Dp encD r deps) <= length (concat (map snd deps)))%nat.
  Proof.
    unfold dep_of. induction deps as [|d deps IH]; cbn; [lia|]. rewrite !app_length.
    destruct (beq (fst d) r); cbn; rewrite ?map_length; lia.
  Qed.

  Lemma group_len subs deps : (length (build_group subs deps) <= length subs + length deps)%nat.
  Proof.
    rewrite <- (map_length fst (build_group subs deps)).
    replace (length subs + length deps)%nat with (length (map fst subs ++ map fst deps))
      by (rewrite app_length, !map_length; reflexivity).
    apply NoDup_incl_length; [apply build_group_nodup; assumption|].
    intros r Hr. apply in_or_app, (build_group_keys B beq Hbeq ltb Hltb Dp encS encD), Hr.
  Qed.

  Lemma group_txs_len subs deps id txs : In (id, txs) (build_group subs deps) ->
    (length txs <= length subs + length (concat (map snd deps)))%nat.
  Proof.
    intros H. apply (im_get_unique B beq Hbeq) in H; [|apply build_group_nodup; assumption].
    rewrite (build_group_get B beq Hbeq ltb Hltb) in H.
    destruct (touched id subs deps); [|discriminate]. injection H as <-.
    unfold BlockDataSpec.expected. rewrite app_length.
    pose proof (seq_of_len id subs). pose proof (dep_of_len id deps). lia.
  Qed.

  Lemma rollup_leaves_ok m : (forall id txs, In (id, txs) m -> (length txs <= BOUND)%nat) ->
    rollup_leaves m = Some (map rollup_leaf_pre m).
  Proof.
    induction m as [|[id txs] m IH]; intros H; [reflexivity|].
    cbn [BlockDataModel.rollup_leaves]. unfold BlockDataModel.rollup_leaf_bytes.
    rewrite root_of_leaves_ok by (apply (H id txs); left; reflexivity). cbn [bind].
    rewrite IH by (intros id0 txs0 H0; apply (H id0 txs0); right; exact H0). reflexivity.
  Qed.

  Lemma rollup_tree_ok m : (forall id txs, In (id, txs) m -> (length txs <= BOUND)%nat) ->
    (length m <= BOUND)%nat ->
    exists t, rollup_tree m = Some t /\ troot t = Some (data_root m) /\
              tree_of (map leafH (map rollup_leaf_pre m)) = Some t.
  Proof.
    intros H1 H2. destruct (tree_root_ok (map leafH (map rollup_leaf_pre m))) as (t & E1 & E2).
    { rewrite !map_length. exact H2. }
    exists t. split; [|split; [rewrite data_root_leaves; exact E2|exact E1]].
    unfold BlockDataModel.rollup_tree. rewrite (rollup_leaves_ok m H1). exact E1.
  Qed.

  Lemma attach_ok t root : forall m i,
    (forall j kv, nth_error m j = Some kv ->
       exists p, get_proof t (i + j)%nat = Some p /\
                 pverifies p (rollup_leaf (fst kv) (snd kv)) root = true) ->
    exists es, attach_proofs t i m = Some es /\ Forall (fun e => entry_verifies root e = true) es.
  Proof.
    induction m as [|[id txs] m IH]; intros i H.
    - exists []. split; [reflexivity|constructor].
    - destruct (H 0%nat (id, txs) eq_refl) as (p & Hp & Hv). rewrite Nat.add_0_r in Hp.
      destruct (IH (S i)) as (es & He & Hf).
      { intros j kv Hj. destruct (H (S j) kv Hj) as (q & Hq & Hv'). exists q.
        rewrite Nat.add_succ_r in Hq. split; assumption. }
      exists ({| e_id := id; e_txs := txs; e_proof := p |} :: es). split.
      + cbn [BlockDataModel.attach_proofs]. rewrite Hp. cbn [bind]. rewrite He. reflexivity.
      + constructor; [exact Hv|exact Hf].
  Qed.

  Lemma attach_data t : forall m i es, attach_proofs t i m = Some es -> map entry_data es = m.
  Proof.
    induction m as [|[id txs] m IH]; intros i es H; cbn [BlockDataModel.attach_proofs] in H.
    - injection H as <-. reflexivity.
    - destruct (get_proof t i); [|discriminate]. cbn [bind] in H.
      destruct (attach_proofs t (S i) m) eqn:E; [|discriminate]. cbn [bind] in H.
      injection H as <-. cbn. f_equal. eapply IH; eassumption.
  Qed.

  Lemma attach_sorted t subs deps es : attach_proofs t 0 (build_group subs deps) = Some es ->
    map entry_data es = build_group subs deps /\ map snd (sort_keys (keyed es)) = es.
  Proof.
    intros H. pose proof (attach_data _ _ _ _ H) as D. split; [exact D|].
    rewrite (sort_keys_sorted_id B beq Hbeq ltb Hltb); [apply keyed_snd|].
    rewrite keyed_fst, <- data_fst, D. apply build_group_sorted; assumption.
  Qed.

  Lemma try_build_inv bh x subs deps b : try_build bh x subs deps = BuildOk b ->
    b_hash b = bh /\ map entry_data (b_entries b) = build_group subs deps.
  Proof.
    unfold BlockDataModel.try_build. cbv zeta.
    destruct (root_of_leaves _); [|discriminate]. destruct (negb _); [discriminate|].
    destruct (rollup_tree _) as [t|]; [|discriminate]. destruct (troot t); [|discriminate].
    destruct (negb _); [discriminate|].
    destruct (attach_proofs t 0 _) as [es|] eqn:E; [|discriminate].
    intros H. injection H as <-. cbn [b_hash b_entries].
    destruct (attach_sorted _ _ _ _ E) as [D ->]. split; [reflexivity|exact D].
  Qed.

  (** without a size bound, as [served_exact] has none *)
  Lemma finalize_inv bh rest subs deps b : finalize bh rest subs deps = BuildOk b ->
    b_hash b = bh /\ map entry_data (b_entries b) = build_group subs deps /\
    map e_id (b_entries b) = map fst (build_group subs deps) /\
    sorted_ids (map e_id (b_entries b)).
  Proof.
    unfold BlockDataModel.finalize. destruct (commitments subs deps) as [[rtr rir]|]; [|discriminate].
    destruct (expand rtr rir rest); [|discriminate]. intros H.
    destruct (try_build_inv _ _ _ _ _ H) as [Hh Hd]. rewrite <- data_fst, Hd.
    split; [exact Hh|]. split; [reflexivity|]. split; [reflexivity|].
    apply build_group_sorted; assumption.
  Qed.

  (** where the summands of [size_ok] go: at most a group per submission or deposit entry, an
      element per submission or deposit, and the two commitments on top of [rest] *)
  Lemma sizes subs deps rest : size_ok subs deps rest ->
    (length (map fst (build_group subs deps)) <= BOUND)%nat /\
    (forall id txs, In (id, txs) (build_group subs deps) -> (length txs <= BOUND)%nat) /\
    (length (build_group subs deps) <= BOUND)%nat /\
    (forall rtr rir, (length (map leafH (data_leaves rtr rir rest)) <= BOUND)%nat).
  Proof.
    unfold BlockDataSpec.size_ok. intros H. pose proof (group_len subs deps) as G.
    split; [rewrite map_length; lia|]. split; [|split; [lia|]].
    - intros id txs Hin. pose proof (group_txs_len subs deps id txs Hin). lia.
    - intros rtr rir. rewrite map_length. unfold BlockDataModel.data_leaves. cbn [length].
      rewrite map_length. pose proof (filter_len (keep_item B) rest). lia.
  Qed.

  Lemma commitments_ok subs deps rest : size_ok subs deps rest ->
    commitments subs deps
    = Some (data_root (build_group subs deps), ids_root (map fst (build_group subs deps))).
  Proof.
    intros Hs. destruct (sizes subs deps rest Hs) as (S1 & S2 & S3 & _).
    destruct (rollup_tree_ok _ S2 S3) as (t & Ert & Etr & _).
    unfold BlockDataModel.commitments. cbv zeta. rewrite (commit_group_eq B beq Hbeq ltb Hltb).
    rewrite (root_of_leaves_ok _ S1). cbn [bind]. rewrite Ert. cbn [bind]. rewrite Etr. reflexivity.
  Qed.

  Lemma expand_ok rtr rir rest :
    let lhs := map leafH (data_leaves rtr rir rest) in (length lhs <= BOUND)%nat ->
    exists rtp rip,
      expand rtr rir rest
      = Some {| x_dh := mroot lhs; x_rtr := rtr; x_rtp := rtp; x_rir := rir; x_rip := rip |} /\
      pverifies rtp (leafH (sha rtr)) (mroot lhs) = true /\
      pverifies rip (leafH (sha rir)) (mroot lhs) = true.
  Proof.
    intros lhs Hl. destruct (tree_root_ok lhs Hl) as (td & Etd & Erd).
    destruct (tree_proof_ok lhs td 0 (leafH (sha rtr)) Hl Etd eq_refl) as (rtp & Hrtp & Vrtp).
    destruct (tree_proof_ok lhs td 1 (leafH (sha rir)) Hl Etd eq_refl) as (rip & Hrip & Vrip).
    exists rtp, rip. split; [|split; assumption].
    unfold BlockDataModel.expand. fold lhs. rewrite Etd. cbn [bind]. rewrite Erd. cbn [bind].
    rewrite Hrtp. cbn [bind]. rewrite Hrip. reflexivity.
  Qed.

  Lemma try_build_ok bh x subs deps rest : size_ok subs deps rest ->
    x_rtr x = data_root (build_group subs deps) ->
    x_rir x = ids_root (map fst (build_group subs deps)) ->
    exists es,
      try_build bh x subs deps
      = BuildOk {| b_hash := bh; b_rtr := x_rtr x; b_dh := x_dh x; b_entries := es;
                   b_rtp := x_rtp x; b_rip := x_rip x |} /\
      Forall (fun e => entry_verifies (x_rtr x) e = true) es.
  Proof.
    intros Hs Er Ei. destruct (sizes subs deps rest Hs) as (S1 & S2 & S3 & _).
    set (m := build_group subs deps) in *.
    destruct (rollup_tree_ok m S2 S3) as (t & Ert & Etr & Eto).
    destruct (attach_ok t (data_root m) m 0) as (es & Hes & Hf).
    { intros j kv Hj. cbn [Nat.add]. rewrite data_root_leaves.
      apply (tree_proof_ok (map leafH (map rollup_leaf_pre m)) t j).
      - rewrite !map_length. exact S3.
      - exact Eto.
      - exact (map_nth_error leafH j _ (map_nth_error rollup_leaf_pre j m Hj)). }
    exists es. rewrite Er. split; [|exact Hf].
    unfold BlockDataModel.try_build. cbv zeta. fold m.
    rewrite (root_of_leaves_ok _ S1), Ei, (bq_refl _ _ Hbeq). cbn [negb].
    rewrite Ert, Etr, Er, (bq_refl _ _ Hbeq). cbn [negb].
    rewrite Hes, (proj2 (attach_sorted _ _ _ _ Hes)). reflexivity.
  Qed.

  (** without lengths, as [finalize_ok] has none *)
  Lemma finalize_builds bh rest subs deps : size_ok subs deps rest ->
    exists es dh rtp rip,
      finalize bh rest subs deps
      = BuildOk {| b_hash := bh; b_rtr := data_root (build_group subs deps); b_dh := dh;
                   b_entries := es; b_rtp := rtp; b_rip := rip |} /\
      dh = mroot (map leafH (data_leaves (data_root (build_group subs deps))
                                         (ids_root (map fst (build_group subs deps))) rest)) /\
      Forall (fun e => entry_verifies (data_root (build_group subs deps)) e = true) es /\
      pverifies rtp (leafH (sha (data_root (build_group subs deps)))) dh = true /\
      pverifies rip (leafH (sha (ids_root (map fst (build_group subs deps))))) dh = true.
  Proof.
    intros Hs. destruct (sizes subs deps rest Hs) as (_ & _ & _ & S4).
    set (rtr := data_root (build_group subs deps)).
    set (rir := ids_root (map fst (build_group subs deps))).
    destruct (expand_ok rtr rir rest (S4 _ _)) as (rtp & rip & Ex & Vrtp & Vrip).
    set (x := {| x_dh := _; x_rtr := rtr; x_rtp := rtp; x_rir := rir; x_rip := rip |}) in Ex.
    destruct (try_build_ok bh x subs deps rest Hs eq_refl eq_refl) as (es & Eb & Hf).
    exists es, (x_dh x), rtp, rip. split; [|split; [reflexivity|split; [exact Hf|split; assumption]]].
    unfold BlockDataModel.finalize. rewrite (commitments_ok _ _ _ Hs). fold rtr rir.
    rewrite Ex. exact Eb.
  Qed.

  Lemma finalize_ok_sec : stmt_finalize_ok B beq ltb cat sha leafH nodeH emptyH zeroD Dp encS encD.
  Proof.
    intros _ _ bh rest subs deps Hs.
    destruct (finalize_builds bh rest subs deps Hs) as (es & dh & rtp & rip & H & _).
    eexists. exact H.
  Qed.

  Lemma mth_d_len d : forall l, Forall (fun x => blen x = 32) l ->
    blen (mth_d B nodeH emptyH d l) = 32.
  Proof.
    destruct Hlen as (HL & HN & HE). induction d as [|d IH]; intros l Hl; cbn [mth_d].
    - destruct l as [|x l]; [exact HE|]. inversion Hl; assumption.
    - destruct (Nat.leb _ _); [apply IH; exact Hl|apply HN].
  Qed.
  Lemma leaves_root_len (l : list B) : blen (mroot (map leafH l)) = 32.
  Proof. apply mth_d_len, Forall_map_all. apply Hlen. Qed.

  Lemma ids_len32 subs deps : ids32 subs deps ->
    forall r, In r (map fst (build_group subs deps)) -> blen r = 32.
  Proof.
    intros [I1 I2] r Hr. apply (build_group_keys B beq Hbeq ltb Hltb Dp encS encD) in Hr.
    destruct Hr as [Hr|Hr]; apply in_map_iff in Hr;
      destruct Hr as (x & <- & Hx); [apply I1|apply I2]; exact Hx.
  Qed.

  Lemma finalize_honest bh rest subs deps b :
    size_ok subs deps rest -> ids32 subs deps -> blen bh = 32 ->
    finalize bh rest subs deps = BuildOk b ->
    let d := build_group subs deps in
    honest_block b /\ b_hash b = bh /\ map entry_data (b_entries b) = d /\
    b_dh b = mroot (map leafH (data_leaves (data_root d) (ids_root (map fst d)) rest)).
  Proof.
    intros Hs Hids Hbh Hf d. destruct (finalize_inv _ _ _ _ _ Hf) as (Hh & Hd & Ids & Se).
    fold d in Hd, Ids.
    destruct (finalize_builds bh rest subs deps Hs) as (es & dh & rtp & rip & Hc & Edh & Fv & Vrtp & Vrip).
    rewrite Hf in Hc. injection Hc as ->. fold d in Edh, Fv, Vrtp, Vrip.
    cbn [b_entries b_hash b_dh] in *. rewrite Forall_forall in Fv.
    assert (L : forall id, In id (map e_id es) -> len32 id = true).
    { intros id Hid. apply len32_iff, (ids_len32 subs deps Hids). fold d. rewrite <- Ids. exact Hid. }
    split; [|split; [reflexivity|split; [exact Hd|exact Edh]]].
    unfold honest_block, hdr_accepted. cbn [b_hash b_rtr b_dh b_entries b_rtp b_rip].
    repeat apply conj.
    - unfold BlockDataModel.hdr_ok. rewrite !(proj2 (len32_iff _)); [reflexivity| | |exact Hbh].
      + rewrite Edh. apply leaves_root_len.
      + rewrite data_root_leaves. apply leaves_root_len.
    - apply forallb_forall. exact L.
    - exact Vrtp.
    - rewrite Ids. exact Vrip.
    - intros e He. split; [|exact (Fv e He)]. unfold BlockDataModel.entry_wf.
      rewrite (pverifies_wf _ _ _ (Fv e He)), (L (e_id e) (in_map _ _ _ He)). reflexivity.
    - rewrite Hd. reflexivity.
    - exact Se.
  Qed.

  Lemma find_each es : unique_ids B es -> forall l, incl l es ->
    filter_opt (find_entry es) (map e_id l) = l.
  Proof.
    intros ND. induction l as [|e l IH]; intros Hi; [reflexivity|]. cbn [map filter_opt].
    rewrite (find_entry_unique es e ND) by (apply Hi; left; reflexivity). f_equal.
    apply IH. intros x Hx. apply Hi. right. exact Hx.
  Qed.

  Lemma stored_id b : NoDup (map e_id (b_entries b)) -> stored_block b = b.
  Proof.
    intros ND. unfold BlockDataModel.stored_block, BlockDataModel.block_ids.
    rewrite (find_each _ ND _ (incl_refl _)).
    rewrite (im_collect_nodup_id B beq Hbeq) by (rewrite keyed_fst; exact ND).
    rewrite keyed_snd. destruct b; reflexivity.
  Qed.

  Lemma sort_ids_id l : sorted_ids l -> sort_ids l = l.
  Proof.
    intros S. unfold BlockDataModel.sort_ids.
    rewrite (sort_keys_sorted_id B beq Hbeq ltb Hltb); rewrite map_map; cbn [fst].
    - apply map_id.
    - rewrite map_id. exact S.
  Qed.

  Lemma im_get_data es r : im_get (map entry_data es) r = option_map (@e_txs B) (find_entry es r).
  Proof.
    unfold BlockDataModel.find_entry, BlockDataModel.keyed.
    induction es as [|e es IH]; [reflexivity|]. cbn.
    destruct (beq (e_id e) r); [reflexivity|exact IH].
  Qed.

  Lemma serve_entries es all req : (forall id, mem id all = true <-> In id (map e_id es)) ->
    map entry_data (filter_opt (find_entry es) (filter (fun id => mem id all) req))
    = filter_opt (fun r => option_map (fun l => (r, l)) (im_get (map entry_data es) r)) req.
  Proof.
    intros Hall. induction req as [|id req IH]; [reflexivity|]. cbn [filter filter_opt].
    rewrite im_get_data. destruct (find_entry es id) as [e|] eqn:F.
    - destruct (find_entry_id _ _ _ F) as [Eid Hin].
      assert (M : mem id all = true). { apply Hall. subst id. apply in_map. exact Hin. }
      rewrite M. cbn [filter_opt option_map]. rewrite F. cbn [map]. rewrite IH. f_equal.
      unfold BlockDataModel.entry_data. rewrite Eid. reflexivity.
    - cbn [option_map]. destruct (mem id all); [cbn [filter_opt]; rewrite F|]; exact IH.
  Qed.

  Lemma found_self es req e :
    In e (filter_opt (find_entry es) req) -> find_entry es (e_id e) = Some e.
  Proof.
    intros H. apply filter_opt_In in H. destruct H as (id & _ & H).
    destruct (find_entry_id _ _ _ H) as [-> _]. exact H.
  Qed.
  Lemma found_incl es req : incl (filter_opt (find_entry es) req) es.
  Proof. intros e H. apply found_self in H. apply (find_entry_id _ _ _ H). Qed.

  Lemma collect_found es req e : In e (collect (filter_opt (find_entry es) req)) <->
    In e (filter_opt (find_entry es) req).
  Proof.
    split; [apply collect_incl|]. intros H. apply collect_In, find_entry_only.
    - apply -> in_rev. exact H.
    - intros e' H' E. apply in_rev, found_self in H'. apply found_self in H.
      rewrite E in H'. congruence.
  Qed.

  Lemma found_In es req e : NoDup (map e_id es) ->
    In e (filter_opt (find_entry es) req) <-> In e es /\ mem (e_id e) req = true.
  Proof.
    intros ND. rewrite filter_opt_In. split.
    - intros (id & H1 & H2). destruct (find_entry_id _ _ _ H2) as [<- Hin].
      split; [exact Hin|]. apply (mem_In _ _ Hbeq). exact H1.
    - intros [H1 H2]. exists (e_id e). split; [apply (mem_In _ _ Hbeq); exact H2|].
      apply find_entry_unique; assumption.
  Qed.

  Lemma served_exact_sec : stmt_served_exact B beq ltb cat sha leafH nodeH emptyH zeroD Dp encS encD.
  Proof.
    intros _ _ bh rest subs deps b Hf d.
    destruct (finalize_inv _ _ _ _ _ Hf) as (Hh & Hd & Ids & Se). fold d in Hd, Ids.
    pose proof (sorted_ids_nodup B ltb Hltb _ Se) as ND.
    split; [exact Hh|]. split; [exact Hd|]. split; [apply stored_id; exact ND|].
    split; [|split; [|split; [|split]]].
    - intros req. unfold BlockDataModel.serve_filtered; cbn [f_all f_entries].
      unfold BlockDataModel.block_ids. rewrite sort_ids_id by exact Se. split; [exact Ids|].
      rewrite <- Hd. apply serve_entries. intros id. apply (mem_In _ _ Hbeq).
    - intros req. unfold BlockDataModel.to_filtered; cbn [f_all f_entries]. split; [exact Ids|].
      fold (collect (filter_opt (find_entry (b_entries b)) req)).
      split; [apply collect_nodup_ids|]. intros e. rewrite collect_found. apply found_In. exact ND.
    - exact Ids.
    - cbn. rewrite map_map. exact Hd.
    - intros bl H. cbn in H. apply in_map_iff in H. destruct H as (e & <- & _). exact Hh.
  Qed.

  Lemma honest_block_nodup b : honest_block b -> unique_ids B (b_entries b).
  Proof. intros (_ & _ & _ & S). apply (sorted_ids_nodup B ltb Hltb); exact S. Qed.

  Lemma recv_full_honest b : honest_block b -> recv_full b = true.
  Proof.
    intros G. pose proof (honest_block_nodup b G) as ND. destruct G as (H & E & R & _).
    apply recv_full_iff. rewrite (collect_id _ ND), <- R.
    split; [exact H|]. split; [|split; [|apply H]];
      apply forallb_forall; intros e He; apply E; exact He.
  Qed.

  Lemma recv_filtered_honest b f : honest_block b ->
    f_hash f = b_hash b -> f_rtr f = b_rtr b -> f_dh f = b_dh b -> f_rtp f = b_rtp b ->
    f_rip f = b_rip b -> f_all f = map e_id (b_entries b) -> incl (f_entries f) (b_entries b) ->
    recv_filtered f = true.
  Proof.
    intros (H & E & _) E1 E2 E3 E4 E5 E6 Hi. apply recv_filtered_iff.
    rewrite E1, E2, E3, E4, E5, E6. split; [exact H|].
    split; apply forallb_forall; intros e He; apply E, Hi; [|apply collect_incl]; exact He.
  Qed.

  Lemma find_entry_cons e es r :
    find_entry (e :: es) r = if beq (e_id e) r then Some e else find_entry es r.
  Proof. reflexivity. Qed.

  Lemma filter_one {C} (mk : entry B -> C) (idof : C -> B) r :
    (forall e, idof (mk e) = e_id e) -> forall es, unique_ids B es ->
    filter (fun c => beq (idof c) r) (map mk es)
    = match find_entry es r with Some e => [mk e] | None => [] end.
  Proof.
    intros Hid. induction es as [|e es IH]; intros ND; [reflexivity|].
    apply NoDup_cons_iff in ND. destruct ND as [Hn ND].
    cbn [map filter]. rewrite Hid, find_entry_cons. destruct (beq (e_id e) r) eqn:E.
    - apply (bq_true _ _ Hbeq) in E. subst r. rewrite (IH ND), (find_entry_none _ _ Hn). reflexivity.
    - apply IH. exact ND.
  Qed.

  Lemma reconstruct_honest b r : honest_block b ->
    reconstruct [fst (split b)] (snd (split b)) r
    = [(b_hash b, match find_entry (b_entries b) r with Some e => e_txs e | None => [] end)].
  Proof.
    intros G. pose proof (honest_block_nodup b G) as ND. destruct G as (_ & G & _).
    rewrite reconstruct_filter. cbn [BlockDataModel.split_celestia fst snd].
    rewrite (filter_one (fun e => {| bl_hash := b_hash b; bl_id := e_id e; bl_txs := e_txs e;
                                      bl_proof := e_proof e |}) (@bl_id B) r (fun e => eq_refl) _ ND).
    destruct (find_entry (b_entries b) r) as [e|] eqn:F.
    - destruct (find_entry_id _ _ _ F) as [_ Hin].
      apply before_F16_one_blob; [apply (bq_refl _ _ Hbeq)|]. exact (proj2 (G e Hin)).
    - apply before_F16_no_blob. cbn [m_ids]. apply (mem_false _ _ Hbeq). intros Hr.
      unfold BlockDataModel.block_ids in Hr. rewrite <- keyed_fst in Hr.
      apply (key_get_Some B beq Hbeq) in Hr. destruct Hr as [v Hr].
      unfold BlockDataModel.find_entry in F. congruence.
  Qed.

  Lemma served_verifies_sec :
    stmt_served_verifies B beq ltb blen cat sha leafH nodeH emptyH zeroD Dp encS encD.
  Proof.
    intros _ _ _ bh rest subs deps b Hs Hids Hbh Hf.
    destruct (finalize_honest _ _ _ _ _ Hs Hids Hbh Hf) as (G & Hh & Hd & _).
    pose proof (honest_block_nodup b G) as ND.
    split; [apply recv_full_honest; exact G|].
    split; [rewrite (stored_id b ND); apply recv_full_honest; exact G|].
    split; [|split; [|split; [|split]]].
    - intros req. apply (recv_filtered_honest b); try reflexivity; [exact G| |].
      + cbn [f_all BlockDataModel.serve_filtered]. apply sort_ids_id. apply G.
      + cbn [f_entries BlockDataModel.serve_filtered]. apply found_incl.
    - intros req. apply (recv_filtered_honest b); try reflexivity; [exact G|].
      cbn [f_entries BlockDataModel.to_filtered].
      fold (collect (filter_opt (find_entry (b_entries b)) req)).
      intros e He. apply collect_incl in He. apply (found_incl _ _ _ He).
    - apply recv_meta_iff. exact (proj1 G).
    - intros bl Hbl. cbn [BlockDataModel.split_celestia snd fst] in Hbl |- *.
      apply in_map_iff in Hbl. destruct Hbl as (e & <- & He).
      destruct G as (_ & G & _). destruct (G e He) as [W V]. split; [|exact V].
      apply andb_prop in W. destruct W as [W1 W2].
      unfold BlockDataModel.blob_ok. cbn [bl_id bl_hash bl_proof].
      rewrite W1, W2, Hh, (proj2 (len32_iff _) Hbh). reflexivity.
    - intros r. rewrite (reconstruct_honest b r G), Hh. f_equal. f_equal.
      pose proof (im_get_data (b_entries b) r) as Hg.
      rewrite Hd, (build_group_get B beq Hbeq ltb Hltb) in Hg.
      destruct (touched r subs deps); destruct (find_entry (b_entries b) r);
        cbn [option_map] in Hg; congruence.
  Qed.
End Serve.

Lemma served_exact B beq ltb cat sha leafH nodeH emptyH zeroD Dp encS encD :
  stmt_served_exact B beq ltb cat sha leafH nodeH emptyH zeroD Dp encS encD.
Proof. intros Hb Hl. apply served_exact_sec; assumption. Qed.

Lemma finalize_ok B beq ltb cat sha leafH nodeH emptyH zeroD Dp encS encD :
  stmt_finalize_ok B beq ltb cat sha leafH nodeH emptyH zeroD Dp encS encD.
Proof. intros Hb Hl. apply finalize_ok_sec; assumption. Qed.

Lemma served_verifies B beq ltb blen cat sha leafH nodeH emptyH zeroD Dp encS encD :
  stmt_served_verifies B beq ltb blen cat sha leafH nodeH emptyH zeroD Dp encS encD.
Proof. intros Hb Hl Hh. apply served_verifies_sec; assumption. Qed.

Check (served_exact : forall B beq ltb cat sha leafH nodeH emptyH zeroD Dp encS encD,
  stmt_served_exact B beq ltb cat sha leafH nodeH emptyH zeroD Dp encS encD).
Check (finalize_ok : forall B beq ltb cat sha leafH nodeH emptyH zeroD Dp encS encD,
  stmt_finalize_ok B beq ltb cat sha leafH nodeH emptyH zeroD Dp encS encD).
Check (served_verifies : forall B beq ltb blen cat sha leafH nodeH emptyH zeroD Dp encS encD,
  stmt_served_verifies B beq ltb blen cat sha leafH nodeH emptyH zeroD Dp encS encD).
Print Assumptions served_exact.
Print Assumptions finalize_ok.
Print Assumptions served_verifies.
