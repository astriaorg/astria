(** C07 -- the positional list operations of the model ([upd_nth], [remove_nth], [dup_nth],
    [swap_adj], [swap_ij], [filter_opt]): membership, positions, lengths, and a few general facts
    about lists. *)
From Astria Require Import BlockData.BlockDataModel.

Lemma in_upd_nth {A} (F : A -> A) : forall k l x,
  In x (upd_nth k F l) -> In x l \/ exists y, In y l /\ x = F y.
Proof.
  induction k as [|k IH]; intros [|a l] x H; cbn [upd_nth In] in *; try contradiction.
  - destruct H as [H|H]; [right; exists a; split; [left; reflexivity|symmetry; exact H]|].
    left. right. exact H.
  - destruct H as [H|H]; [left; left; exact H|].
    destruct (IH _ _ H) as [H1|[y [Hy E]]]; [left; right; exact H1|].
    right. exists y. split; [right; exact Hy|exact E].
Qed.

Lemma in_remove_nth {A} : forall k (l : list A) x, In x (remove_nth k l) -> In x l.
Proof.
  induction k as [|k IH]; intros [|a l] x H; cbn [remove_nth In] in *; try contradiction.
  - right. exact H.
  - destruct H as [H|H]; [left; exact H|right; apply IH; exact H].
Qed.

Lemma in_swap_ij {A} i j (l : list A) x : In x (swap_ij i j l) -> In x l.
Proof.
  unfold swap_ij. destruct (nth_error l i) as [a|] eqn:Ea; [|intros H; exact H].
  destruct (nth_error l j) as [b|] eqn:Eb; [|intros H; exact H].
  intros H. apply nth_error_In in Ea. apply nth_error_In in Eb.
  apply in_upd_nth in H. destruct H as [H|[y [_ E]]]; [|rewrite E; exact Ea].
  apply in_upd_nth in H. destruct H as [H|[y [_ E]]]; [exact H|rewrite E; exact Eb].
Qed.

Lemma filter_opt_In {A C} (f : A -> option C) l y :
  In y (filter_opt f l) <-> exists x, In x l /\ f x = Some y.
Proof.
  induction l as [|a l IH]; cbn.
  - split; [intros []|intros (x & [] & _)].
  - destruct (f a) as [c|] eqn:E.
    + cbn. rewrite IH. split.
      * intros [H|(x & H1 & H2)]; [exists a; split; [left; reflexivity|congruence]|].
        exists x. split; [right; exact H1|exact H2].
      * intros (x & [H1|H1] & H2); [left; congruence|right; exists x; split; assumption].
    + rewrite IH. split.
      * intros (x & H1 & H2). exists x. split; [right; exact H1|exact H2].
      * intros (x & [H1|H1] & H2); [congruence|exists x; split; assumption].
Qed.

Lemma nth_error_upd_same {A} (F : A -> A) : forall j l x,
  nth_error l j = Some x -> nth_error (upd_nth j F l) j = Some (F x).
Proof.
  induction j as [|j IH]; intros [|a l] x H; cbn [nth_error upd_nth] in *; try discriminate H.
  - injection H as H. rewrite H. reflexivity.
  - apply IH. exact H.
Qed.

Lemma nth_error_upd_other {A} (F : A -> A) : forall j2 j l,
  j2 <> j -> nth_error (upd_nth j2 F l) j = nth_error l j.
Proof.
  induction j2 as [|j2 IH]; intros [|j] [|a l] H; cbn [nth_error upd_nth]; try reflexivity.
  - contradiction H. reflexivity.
  - apply IH. intros E. apply H. rewrite E. reflexivity.
Qed.

Lemma upd_nth_split {A} (F : A -> A) : forall j l x,
  nth_error l j = Some x -> upd_nth j F l = firstn j l ++ F x :: skipn (S j) l.
Proof.
  induction j as [|j IH]; intros [|a l] x H; cbn [nth_error] in H; try discriminate H.
  - injection H as H. rewrite H. reflexivity.
  - cbn [upd_nth firstn app]. rewrite (IH _ _ H). reflexivity.
Qed.

Lemma swap_adj_nth {A} : forall k (l : list A) y z,
  nth_error l k = Some y -> nth_error l (S k) = Some z -> nth_error (swap_adj k l) k = Some z.
Proof.
  induction k as [|k IH]; intros [|a [|b r]] y z H1 H2; cbn [nth_error] in H1, H2;
    try discriminate H1; try discriminate H2.
  - cbn [swap_adj nth_error]. exact H2.
  - cbn [swap_adj nth_error]. eapply IH; [exact H1|exact H2].
Qed.

Lemma map_upd_nth_id {A C} (g : A -> C) (F : A -> A) : (forall x, g (F x) = g x) ->
  forall k l, map g (upd_nth k F l) = map g l.
Proof.
  intros HF. induction k as [|k IH]; intros [|a l]; cbn [upd_nth map]; try reflexivity.
  - rewrite HF. reflexivity.
  - rewrite IH. reflexivity.
Qed.

Lemma map_remove_nth {A C} (g : A -> C) : forall k l,
  map g (remove_nth k l) = remove_nth k (map g l).
Proof.
  induction k as [|k IH]; intros [|a l]; cbn [remove_nth map]; try reflexivity.
  rewrite IH. reflexivity.
Qed.

Lemma length_remove_nth {A} : forall k (l : list A),
  (k < length l)%nat -> S (length (remove_nth k l)) = length l.
Proof.
  induction k as [|k IH]; intros [|a l] H; cbn [length remove_nth] in *; try lia.
  rewrite IH; lia.
Qed.

Lemma length_dup_nth {A} : forall k (l : list A),
  (k < length l)%nat -> length (dup_nth k l) = S (length l).
Proof.
  induction k as [|k IH]; intros [|a l] H; cbn [length dup_nth] in *; try lia.
  rewrite IH; lia.
Qed.

Lemma NoDup_remove_nth {A} : forall k (l : list A), NoDup l -> NoDup (remove_nth k l).
Proof.
  induction k as [|k IH]; intros [|a l] H; cbn [remove_nth]; try exact H.
  - inversion H. assumption.
  - inversion H as [|? ? Hn Hd]. subst. constructor.
    + intros Hi. apply Hn. eapply in_remove_nth. exact Hi.
    + apply IH. exact Hd.
Qed.

Lemma forallb_remove_nth {A} (p : A -> bool) k l :
  forallb p l = true -> forallb p (remove_nth k l) = true.
Proof.
  rewrite !forallb_forall. intros H x Hx. apply H. eapply in_remove_nth. exact Hx.
Qed.

Lemma filter_len {A} (f : A -> bool) l : (length (filter f l) <= length l)%nat.
Proof. induction l as [|a l IH]; cbn; [lia|]. destruct (f a); cbn; lia. Qed.

Lemma Forall_map_all {A C} (P : C -> Prop) (f : A -> C) l : (forall a, P (f a)) -> Forall P (map f l).
Proof. intros H. induction l; cbn; constructor; auto. Qed.

Lemma forall_in_or {A} (P : A -> Prop) (C : Prop) : forall l : list A,
  (forall x, In x l -> P x \/ C) -> (forall x, In x l -> P x) \/ C.
Proof.
  induction l as [|a l IH]; intros H.
  - left. intros x [].
  - destruct (H a (or_introl eq_refl)) as [Pa|c]; [|right; exact c].
    assert (Hl : forall x, In x l -> P x \/ C) by (intros x Hx; apply H; right; exact Hx).
    destruct (IH Hl) as [Pl|c]; [|right; exact c].
    left. intros x [E|Hx]; [rewrite <- E; exact Pa|apply Pl; exact Hx].
Qed.

Lemma map_inj_or {A C} (f : A -> C) (P : Prop) : forall l l',
  (forall x y, In x l -> In y l' -> f x = f y -> x = y \/ P) -> map f l = map f l' -> l = l' \/ P.
Proof.
  induction l as [|x l IH]; intros [|y l'] Hf H; cbn [map] in H; try discriminate H.
  - left. reflexivity.
  - injection H as H1 H2.
    destruct (Hf x y (or_introl eq_refl) (or_introl eq_refl) H1) as [E1|p]; [|right; exact p].
    destruct (IH l') as [E2|p]; [|exact H2| |right; exact p].
    + intros a b Ha Hb. apply Hf; right; assumption.
    + left. rewrite E1, E2. reflexivity.
Qed.
