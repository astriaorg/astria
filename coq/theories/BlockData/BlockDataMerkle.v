(** C07 -- generic facts about the RFC 6962 tree hash [mth] of the Merkle model: the split of a
    list of two or more leaves, injectivity of [mth] and membership of a verified leaf, both up
    to explicit collisions. *)
From Astria Require Import Merkle.MerkleModel Merkle.MerkleSpec Merkle.MerkleSound Merkle.MerkleLayout.

Section BDMerkle.
  Variable D : Type.
  Variable nodeH : D -> D -> D.
  Variable emptyH : D.

  Local Notation mth_d := (mth_d D nodeH emptyH).
  Local Notation mth := (mth D nodeH emptyH).
  Local Notation Collision := (Collision D nodeH).

  Definition IsNode (d : D) : Prop := exists a b, d = nodeH a b.

  Lemma mth_d_plus d k : forall l, (length l <= Nat.pow 2 d)%nat ->
    mth_d (k + d) l = mth_d d l.
  Proof.
    induction k as [|k IH]; intros l Hl; [reflexivity|].
    cbn [plus]. rewrite (mth_skip D nodeH emptyH); [apply IH; exact Hl|].
    pose proof (Nat.pow_le_mono_r 2 d (k + d)). lia.
  Qed.

  Lemma mth_d_mth d l : (length l <= Nat.pow 2 d)%nat -> mth_d d l = mth l.
  Proof.
    intros H. unfold MerkleModel.mth. set (e := Nat.log2_up (length l)).
    assert (He : (length l <= Nat.pow 2 e)%nat /\ (e <= d)%nat).
    { destruct l as [|x l]; [cbn; lia|].
      split; apply Nat.log2_up_le_pow2; cbn [length] in *; lia. }
    replace d with ((d - e) + e)%nat by lia. apply mth_d_plus, He.
  Qed.

  Lemma mth_nil : mth [] = emptyH.
  Proof. reflexivity. Qed.

  Lemma mth_one x : mth [x] = x.
  Proof. reflexivity. Qed.

  Lemma mth_split : forall l, (2 <= length l)%nat ->
    exists k, (0 < k < length l)%nat /\ mth l = nodeH (mth (firstn k l)) (mth (skipn k l)).
  Proof.
    intros l Hl.
    assert (H1 : (1 < length l)%nat) by lia.
    pose proof (Nat.log2_up_spec _ H1) as [Hlo Hhi].
    pose proof (Nat.log2_up_pos _ H1) as Hpos.
    unfold MerkleModel.mth at 1.
    destruct (Nat.log2_up (length l)) as [|e]; [lia|].
    cbn [Nat.pred] in Hlo.
    exists (Nat.pow 2 e). split.
    - pose proof (pow_pos e). lia.
    - rewrite (mth_node D nodeH emptyH) by exact Hlo.
      rewrite (mth_d_mth e (firstn _ l)).
      + rewrite (mth_d_mth e (skipn _ l)); [reflexivity|].
        rewrite skipn_length. cbn [Nat.pow] in Hhi. lia.
      + rewrite firstn_length. lia.
  Qed.

  Lemma mth_cases l :
    (l = [] /\ mth l = emptyH) \/ (exists x, l = [x] /\ mth l = x) \/
    (exists k, (0 < k < length l)%nat /\ mth l = nodeH (mth (firstn k l)) (mth (skipn k l))).
  Proof.
    destruct l as [|x [|y l]].
    - left. split; reflexivity.
    - right. left. exists x. split; reflexivity.
    - right. right. apply mth_split. cbn. lia.
  Qed.

  Variable eqD : D -> D -> bool.
  Hypothesis Heq : EqDSpec D eqD.

  (** what the two arguments below leave open; among leaf hashes every case is a collision *)
  Definition Bad (l : list D) : Prop :=
    Collision \/ (exists x, In x l /\ IsNode x) \/ In emptyH l \/ IsNode emptyH.

  Lemma Bad_collision l : Collision -> Bad l.
  Proof. intros H. left. exact H. Qed.
  Lemma Bad_node l x a b : In x l -> x = nodeH a b -> Bad l.
  Proof. intros H E. right. left. exists x. split; [exact H|exists a, b; exact E]. Qed.
  Lemma Bad_empty l : In emptyH l -> Bad l.
  Proof. intros H. right. right. left. exact H. Qed.
  Lemma Bad_empty_node l a b : emptyH = nodeH a b -> Bad l.
  Proof. intros E. right. right. right. exists a, b. exact E. Qed.

  Lemma Bad_incl l m : incl l m -> Bad l -> Bad m.
  Proof.
    intros Hi [H|[[x [Hx Hn]]|[H|H]]].
    - left. exact H.
    - right. left. exists x. split; [apply Hi; exact Hx|exact Hn].
    - right. right. left. apply Hi. exact H.
    - right. right. right. exact H.
  Qed.

  Lemma firstn_incl {A} k (l : list A) : incl (firstn k l) l.
  Proof. intros x H. rewrite <- (firstn_skipn k l). apply in_or_app. left. exact H. Qed.

  Lemma skipn_incl {A} k (l : list A) : incl (skipn k l) l.
  Proof. intros x H. rewrite <- (firstn_skipn k l). apply in_or_app. right. exact H. Qed.

  Lemma mth_inj_aux : forall n l l', (length l < n)%nat ->
    mth l = mth l' -> l = l' \/ Bad (l ++ l').
  Proof.
    (* lists of different shape (none, one, two or more leaves) have tree hashes of different
       shape, which is [Bad]; two of two or more split alike up to a collision, into shorter ones *)
    induction n as [|n IH]; intros l l' Hn Hm; [lia|].
    destruct (mth_cases l) as [[-> E]|[(x & -> & E)|(k & Hk & E)]];
      destruct (mth_cases l') as [[-> E']|[(y & -> & E')|(k' & Hk' & E')]]; rewrite E, ?E' in Hm.
    - left. reflexivity.
    - right. apply Bad_empty. left. symmetry. exact Hm.
    - right. exact (Bad_empty_node _ _ _ Hm).
    - right. apply Bad_empty. left. exact Hm.
    - left. rewrite Hm. reflexivity.
    - right. eapply Bad_node; [left; reflexivity|exact Hm].
    - right. exact (Bad_empty_node _ _ _ (eq_sym Hm)).
    - right. eapply Bad_node; [apply in_or_app; right; left; reflexivity|symmetry; exact Hm].
    - destruct (nodeH_inj_or_collision D nodeH eqD Heq _ _ _ _ Hm) as [[Ha Hb]|Hc];
        [|right; exact (Bad_collision _ Hc)].
      assert (Hf : (length (firstn k l) < n)%nat) by (rewrite firstn_length; lia).
      assert (Hs : (length (skipn k l) < n)%nat) by (rewrite skipn_length; lia).
      destruct (IH _ _ Hf Ha) as [E1|B1].
      2:{ right. revert B1. apply Bad_incl, incl_app_app; apply firstn_incl. }
      destruct (IH _ _ Hs Hb) as [E2|B2].
      2:{ right. revert B2. apply Bad_incl, incl_app_app; apply skipn_incl. }
      left. rewrite <- (firstn_skipn k l), <- (firstn_skipn k' l'), E1, E2. reflexivity.
  Qed.

  Lemma mth_inj l l' : mth l = mth l' -> l = l' \/ Bad (l ++ l').
  Proof. intros H. exact (mth_inj_aux (S (length l)) l l' (le_n _) H). Qed.

  Local Notation reconstruct_loop := (reconstruct_loop D nodeH).
  Local Notation reconstruct_root := (reconstruct_root D nodeH).

  Lemma reconstruct_loop_snoc n s : forall path i acc r,
    reconstruct_loop (path ++ [s]) i n acc = Some r ->
    exists acc', reconstruct_loop path i n acc = Some acc' /\
                 (r = nodeH acc' s \/ r = nodeH s acc').
  Proof.
    induction path as [|a path IH]; intros i acc r H.
    - cbn [app MerkleModel.reconstruct_loop] in H |- *. exists acc. split; [reflexivity|].
      destruct (checked_complete_parent i n) as [[p|]|]; [| |discriminate H].
      + destruct (i <? p); injection H as H; [left|right]; symmetry; exact H.
      + injection H as H. left. symmetry. exact H.
    - cbn [app MerkleModel.reconstruct_loop] in H |- *.
      destruct (checked_complete_parent i n) as [[p|]|]; [| |discriminate H].
      + apply IH. exact H.
      + apply IH. exact H.
  Qed.

  Lemma member_incl lh L1 L : incl L1 L -> In lh L1 \/ Bad (lh :: L1) -> In lh L \/ Bad (lh :: L).
  Proof.
    intros Hi [H|H]; [left; apply Hi; exact H|right]. revert H. apply Bad_incl.
    intros u [Hu|Hu]; [left; exact Hu|right; apply Hi; exact Hu].
  Qed.

  Lemma reconstruct_loop_member n : forall path i acc L,
    reconstruct_loop path i n acc = Some (mth L) -> In acc L \/ Bad (acc :: L).
  Proof.
    (* from the end of the path: the last step yields a node hash, so [L] has two or more leaves
       and, up to a collision, the step before yields the hash of a half *)
    induction path as [|s path IH] using rev_ind; intros i acc L H.
    - cbn [MerkleModel.reconstruct_loop] in H. injection H as H.
      destruct (mth_cases L) as [[-> E]|[(x & -> & E)|(k & _ & E)]]; rewrite E in H.
      + right. apply Bad_empty. left. exact H.
      + left. left. symmetry. exact H.
      + right. eapply Bad_node; [left; reflexivity|exact H].
    - apply reconstruct_loop_snoc in H. destruct H as [acc' [H Hr]].
      destruct (mth_cases L) as [[-> E]|[(x & -> & E)|(k & _ & E)]]; rewrite E in Hr.
      + right. destruct Hr as [Hr|Hr]; exact (Bad_empty_node _ _ _ Hr).
      + right. destruct Hr as [Hr|Hr]; (eapply Bad_node; [right; left; reflexivity|exact Hr]).
      + destruct Hr as [Hr|Hr];
          (destruct (nodeH_inj_or_collision D nodeH eqD Heq _ _ _ _ Hr) as [[Ha Hb]|Hc];
             [|right; exact (Bad_collision _ Hc)]).
        * rewrite <- Ha in H. apply IH in H. revert H. apply member_incl, firstn_incl.
        * rewrite <- Hb in H. apply IH in H. revert H. apply member_incl, skipn_incl.
  Qed.

  Lemma reconstruct_member p lh L :
    reconstruct_root p lh = Some (mth L) -> In lh L \/ Bad (lh :: L).
  Proof.
    intros H. apply (reconstruct_root_inv D nodeH) in H. destruct H as [i H].
    exact (reconstruct_loop_member _ _ _ _ _ H).
  Qed.
End BDMerkle.

Print Assumptions mth_split.
Print Assumptions mth_inj.
Print Assumptions reconstruct_member.
