(** C07.3 / C07.4 -- tampering of served data is detected (or exhibits an explicit collision), and
    what these receivers cannot detect. *)
From Astria Require Import BlockData.BlockDataMerkle BlockData.BlockDataSpec Merkle.MerkleSound
  BlockData.BlockDataLists BlockData.BlockDataRecv.

Section Tamper.
  Variable B : Type.
  Variable beq : B -> B -> bool.
  Variable blen : B -> N.
  Variable cat : B -> B -> B.
  Variable sha leafH : B -> B.
  Variable nodeH : B -> B -> B.
  Variable emptyH : B.

  Local Notation Coll := (Coll B sha leafH nodeH emptyH).
  Local Notation BeqSpec := (BeqSpec B beq).
  Local Notation CatInj := (CatInj B blen cat).
  Local Notation mroot := (mroot B nodeH emptyH).
  Local Notation txs_root := (txs_root B leafH nodeH emptyH).
  Local Notation data_root := (data_root B cat leafH nodeH emptyH).
  Local Notation ids_root := (ids_root B leafH nodeH emptyH).
  Local Notation pverifies := (pverifies B beq nodeH).
  Local Notation verify := (verify B nodeH beq).
  Local Notation collect := (collect B beq).
  Local Notation entry_data := (entry_data B).
  Local Notation entry_verifies := (entry_verifies B beq cat leafH nodeH emptyH).
  Local Notation recv_full := (recv_full B beq blen cat sha leafH nodeH emptyH).
  Local Notation recv_filtered := (recv_filtered B beq blen cat sha leafH nodeH emptyH).
  Local Notation blob_ok := (blob_ok B blen).
  Local Notation audit_blob := (audit_blob B beq cat leafH nodeH emptyH).
  Local Notation tamper_f := (tamper_f B).
  Local Notation tamper_entries := (tamper_entries B).
  Local Notation unique_ids := (unique_ids B).
  Local Notation set_txs := (set_txs B).
  Local Notation set_id := (set_id B).
  Local Notation set_proof := (set_proof B).

  Local Notation rollup_leaf_pre := (rollup_leaf_pre B cat leafH nodeH emptyH).
  Local Notation hdr_accepted := (hdr_accepted B beq blen sha leafH nodeH emptyH).

  Lemma Coll_node : Collision B nodeH -> Coll.
  Proof. intros H. left. exact H. Qed.
  Lemma Coll_leaf x y : x <> y -> leafH x = leafH y -> Coll.
  Proof. intros N H. right. left. exists x, y. split; assumption. Qed.
  Lemma Coll_sha x y : x <> y -> sha x = sha y -> Coll.
  Proof. intros N H. right. right. left. exists x, y. split; assumption. Qed.
  Lemma Coll_leaf_node x a b : leafH x = nodeH a b -> Coll.
  Proof. intros H. right. right. right. left. exists x, a, b. exact H. Qed.
  Lemma Coll_leaf_empty x : leafH x = emptyH -> Coll.
  Proof. intros H. right. right. right. right. left. exists x. exact H. Qed.
  Lemma Coll_node_empty a b : nodeH a b = emptyH -> Coll.
  Proof. intros H. right. right. right. right. right. exists a, b. exact H. Qed.

  Lemma Bad_leaves l : Bad B nodeH emptyH (map leafH l) -> Coll.
  Proof.
    intros [C|[[x [Hx [a [b Hn]]]]|[He|[a [b Hn]]]]].
    - exact (Coll_node C).
    - apply in_map_iff in Hx. destruct Hx as [y [<- _]]. exact (Coll_leaf_node _ _ _ Hn).
    - apply in_map_iff in He. destruct He as [y [Hy _]]. exact (Coll_leaf_empty _ Hy).
    - exact (Coll_node_empty _ _ (eq_sym Hn)).
  Qed.

  Lemma pverifies_inv p lh r : pverifies p lh r = true -> verify p lh r = Some true.
  Proof.
    unfold BlockDataModel.pverifies. intros H. apply andb_true_iff in H. destruct H as [_ H].
    destruct (verify p lh r) as [[|]|]; [reflexivity|discriminate H|discriminate H].
  Qed.

  Lemma leafH_inj (Hb : BeqSpec) x y : leafH x = leafH y -> x = y \/ Coll.
  Proof.
    intros H. destruct (eqD_dec B beq Hb x y) as [E|N]; [left; exact E|].
    right. exact (Coll_leaf _ _ N H).
  Qed.

  Lemma sha_inj (Hb : BeqSpec) x y : sha x = sha y -> x = y \/ Coll.
  Proof.
    intros H. destruct (eqD_dec B beq Hb x y) as [E|N]; [left; exact E|].
    right. exact (Coll_sha _ _ N H).
  Qed.

  Lemma leaf_lists_inj (Hb : BeqSpec) l l' :
    mroot (map leafH l) = mroot (map leafH l') -> l = l' \/ Coll.
  Proof.
    unfold BlockDataModel.mroot. intros H.
    destruct (mth_inj B nodeH emptyH beq Hb _ _ H) as [E|C].
    - apply (map_inj_or leafH Coll); [|exact E]. intros x y _ _. apply leafH_inj, Hb.
    - right. rewrite <- map_app in C. exact (Bad_leaves _ C).
  Qed.

  Lemma pair_leaf_inj (Hb : BeqSpec) (Hc : CatInj) id txs id' txs' :
    blen id = 32 -> blen id' = 32 ->
    cat id (txs_root txs) = cat id' (txs_root txs') -> (id = id' /\ txs = txs') \/ Coll.
  Proof.
    intros L L' E.
    destruct (Hc _ _ _ _ (eq_trans L (eq_sym L')) E) as [Ei Et].
    unfold BlockDataModel.txs_root in Et.
    destruct (leaf_lists_inj Hb _ _ Et) as [E2|C]; [|right; exact C].
    left. split; assumption.
  Qed.

  Lemma pv_leaf_inj (Hb : BeqSpec) p x y r :
    pverifies p (leafH x) r = true -> pverifies p (leafH y) r = true -> x = y \/ Coll.
  Proof.
    intros V V'. apply pverifies_inv in V. apply pverifies_inv in V'.
    destruct (sound_leaf B nodeH beq Hb _ _ _ _ V V') as [E|C]; [|right; apply Coll_node; exact C].
    apply leafH_inj; assumption.
  Qed.

  Lemma entry_binding : stmt_entry_binding B beq blen cat sha leafH nodeH emptyH.
  Proof.
    intros Hb Hc p rtr id txs id' txs' L L' V V'.
    destruct (pv_leaf_inj Hb _ _ _ _ V V') as [E|C]; [|right; exact C].
    apply pair_leaf_inj; assumption.
  Qed.

  Lemma proof_binds (Hb : BeqSpec) (Hc : CatInj) rtr (e e' : entry B) :
    blen (e_id e) = 32 -> blen (e_id e') = 32 ->
    entry_verifies rtr e = true -> entry_verifies rtr e' = true -> e_proof e' = e_proof e ->
    entry_data e' = entry_data e \/ Coll.
  Proof.
    unfold BlockDataModel.entry_verifies. intros L L' V V' Ep. rewrite Ep in V'.
    destruct (entry_binding Hb Hc _ _ _ _ _ _ L' L V' V) as [[Ei Et]|C]; [left|right; exact C].
    unfold BlockDataModel.entry_data. rewrite Ei, Et. reflexivity.
  Qed.

  Lemma data_root_inj (Hb : BeqSpec) (Hc : CatInj) (d d' : list (B * list B)) :
    (forall kv, In kv d -> blen (fst kv) = 32) -> (forall kv, In kv d' -> blen (fst kv) = 32) ->
    data_root d = data_root d' -> d = d' \/ Coll.
  Proof.
    intros L L' H. rewrite !data_root_leaves in H.
    destruct (leaf_lists_inj Hb _ _ H) as [E|C]; [|right; exact C].
    apply (map_inj_or rollup_leaf_pre Coll); [|exact E]. intros [a ta] [b tb] Ha Hb0 E1.
    destruct (pair_leaf_inj Hb Hc a ta b tb (L _ Ha) (L' _ Hb0) E1) as [[-> ->]|C];
      [left; reflexivity|right; exact C].
  Qed.

  Lemma hdr_rtr (Hb : BeqSpec) p rtr rtr' dh :
    pverifies p (leafH (sha rtr)) dh = true -> pverifies p (leafH (sha rtr')) dh = true ->
    rtr' = rtr \/ Coll.
  Proof.
    intros V V'. destruct (pv_leaf_inj Hb _ _ _ _ V' V) as [E|C]; [|right; exact C].
    apply sha_inj; assumption.
  Qed.

  Lemma hdr_dh (Hb : BeqSpec) p l dh dh' :
    pverifies p l dh = true -> pverifies p l dh' = true -> dh' = dh.
  Proof.
    intros V V'. apply pverifies_inv in V. apply pverifies_inv in V'.
    exact (sound_root B nodeH beq Hb _ _ _ _ V' V).
  Qed.

  Lemma hdr_ids (Hb : BeqSpec) p ids ids' dh :
    pverifies p (leafH (sha (ids_root ids))) dh = true ->
    pverifies p (leafH (sha (ids_root ids'))) dh = true -> ids' = ids \/ Coll.
  Proof.
    intros V V'. destruct (hdr_rtr Hb _ _ _ _ V V') as [E|C]; [|right; exact C].
    unfold BlockDataModel.ids_root in E. apply leaf_lists_inj; assumption.
  Qed.

  Local Notation Hdr f :=
    (hdr_accepted (f_hash f) (f_rtr f) (f_dh f) (f_rtp f) (f_rip f) (f_all f)).

  Lemma tamper_keeps t f :
    (f_rtp (tamper_f t f) = f_rtp f /\ f_rip (tamper_f t f) = f_rip f /\
     f_dh (tamper_f t f) = f_dh f) \/
    (f_rtp (tamper_f t f) = f_rtp f /\ f_rtr (tamper_f t f) = f_rtr f /\
     f_all (tamper_f t f) = f_all f /\ f_entries (tamper_f t f) = f_entries f) \/
    (f_dh (tamper_f t f) = f_dh f /\ f_rtr (tamper_f t f) = f_rtr f /\
     f_all (tamper_f t f) = f_all f /\ f_entries (tamper_f t f) = f_entries f).
  Proof.
    destruct t;
      cbn [BlockDataModel.tamper_f BlockDataModel.tamper_ids BlockDataModel.tamper_entries
           f_all f_rtr f_dh f_rtp f_rip f_entries];
      first [left; repeat split; reflexivity|right; left; repeat split; reflexivity
            |right; right; repeat split; reflexivity].
  Qed.

  Lemma tamper_hdr (Hb : BeqSpec) t f : Hdr f -> Hdr (tamper_f t f) ->
    (f_all (tamper_f t f) = f_all f /\ f_rtr (tamper_f t f) = f_rtr f /\
     f_dh (tamper_f t f) = f_dh f) \/ Coll.
  Proof.
    intros (_ & _ & V1 & V2) (_ & _ & V1' & V2').
    destruct (tamper_keeps t f) as [(Ep & Ei & Ed)|[(Ep & Er & Ea & _)|(Ed & Er & Ea & _)]].
    - rewrite Ep, Ed in V1'. rewrite Ei, Ed in V2'.
      destruct (hdr_rtr Hb _ _ _ _ V1 V1') as [Er|C]; [|right; exact C].
      destruct (hdr_ids Hb _ _ _ _ V2 V2') as [Ea|C]; [|right; exact C].
      left. repeat split; assumption.
    - rewrite Ep, Er in V1'. left. repeat split; try assumption.
      exact (hdr_dh Hb _ _ _ _ V1 V1').
    - left. repeat split; assumption.
  Qed.

  Lemma tamper_entries_keeps t es :
    map e_proof (tamper_entries t es) = map e_proof es \/
    map entry_data (tamper_entries t es) = map entry_data es \/
    incl (tamper_entries t es) es.
  Proof.
    destruct t; cbn [BlockDataModel.tamper_entries];
      try (left; apply map_upd_nth_id; reflexivity);
      try (right; left; apply map_upd_nth_id; reflexivity);
      try (right; right; apply incl_refl).
    - (* TMvData *) destruct (nth_error es j2); [left; apply map_upd_nth_id; reflexivity|].
      right. right. apply incl_refl.
    - (* TSwapProof *) destruct (nth_error es j), (nth_error es j2); try (right; right; apply incl_refl).
      right. left. rewrite !map_upd_nth_id; reflexivity.
    - (* TRmEntry *) right. right. intros e. apply in_remove_nth.
    - (* TDupEntry *) right. right. destruct (nth_error es j) as [e|] eqn:E; [|apply incl_refl].
      apply incl_app; [apply incl_refl|]. intros x [<-|[]]. exact (nth_error_In _ _ E).
    - (* TSwapEntry *) right. right. intros e. apply in_swap_ij.
  Qed.

  Lemma tamper_bound (Hb : BeqSpec) (Hc : CatInj) rtr t es :
    (forall e, In e es -> entry_verifies rtr e = true /\ blen (e_id e) = 32) ->
    forall e', In e' (tamper_entries t es) -> blen (e_id e') = 32 -> entry_verifies rtr e' = true ->
      In (entry_data e') (map entry_data es) \/ Coll.
  Proof.
    intros Hes e' Hin L V. destruct (tamper_entries_keeps t es) as [Ep|[Ed|Hi]].
    - apply (in_map e_proof) in Hin. rewrite Ep in Hin. apply in_map_iff in Hin.
      destruct Hin as (e & Hp & He). destruct (Hes _ He) as [Ve Le].
      destruct (proof_binds Hb Hc rtr e e' Le L Ve V (eq_sym Hp)) as [E|C]; [left|right; exact C].
      rewrite E. apply in_map. exact He.
    - left. rewrite <- Ed. apply in_map. exact Hin.
    - left. apply in_map, Hi. exact Hin.
  Qed.

  Lemma filtered_tamper : stmt_filtered_tamper B beq blen cat sha leafH nodeH emptyH.
  Proof.
    intros Hb Hc f t R U R'. pose proof (recv_filtered_entry Hb f R U) as Hes.
    apply recv_filtered_iff in R. apply recv_filtered_iff in R'.
    destruct R as (H & _). destruct R' as (H' & W' & V').
    destruct (tamper_hdr Hb t f H H') as [(Ea & Er & Ed)|C]; [|right; exact C].
    rewrite forallb_forall in V', W'.
    destruct (forall_in_or (fun e => In (entry_data e) (map entry_data (f_entries f))) Coll
                (collect (f_entries (tamper_f t f)))) as [P|C];
      [|left; repeat split; assumption|right; exact C].
    intros e' He'. apply (tamper_bound Hb Hc (f_rtr f) t (f_entries f) Hes).
    - apply (collect_incl Hb). exact He'.
    - apply entry_wf_len. apply W'. apply (collect_incl Hb). exact He'.
    - rewrite <- Er. apply V'. exact He'.
  Qed.

  Lemma full_block_bound (Hb : BeqSpec) (Hc : CatInj) b b' :
    recv_full b = true -> unique_ids (b_entries b) -> recv_full b' = true ->
    b_rtp b' = b_rtp b -> b_dh b' = b_dh b ->
    (map entry_data (collect (b_entries b')) = map entry_data (b_entries b) /\
     b_rtr b' = b_rtr b /\ b_dh b' = b_dh b) \/ Coll.
  Proof.
    intros R U R' Ep Ed.
    apply (recv_full_iff Hb) in R. apply (recv_full_iff Hb) in R'.
    destruct R as ((_ & L & V1 & _) & _ & _ & V2). destruct R' as ((_ & L' & V1' & _) & _ & _ & V2').
    rewrite (collect_id Hb _ U) in V2, L. rewrite Ep, Ed in V1', V2'.
    destruct (hdr_rtr Hb _ _ _ _ V1 V2) as [E1|C]; [|right; exact C].
    destruct (hdr_rtr Hb _ _ _ _ V1 V1') as [E2|C]; [|right; exact C].
    destruct (hdr_rtr Hb _ _ _ _ V1' V2') as [E3|C]; [|right; exact C].
    destruct (data_root_inj Hb Hc (map entry_data (collect (b_entries b')))
                (map entry_data (b_entries b))) as [E|C]; [| | |left|right; exact C].
    - intros kv Hk. apply (len32_all _ L'). rewrite <- data_fst. apply in_map. exact Hk.
    - intros kv Hk. apply (len32_all _ L). rewrite <- data_fst. apply in_map. exact Hk.
    - rewrite E3, E2, E1. reflexivity.
    - repeat split; assumption.
  Qed.

  Lemma full_tamper : stmt_full_tamper B beq blen cat sha leafH nodeH emptyH.
  Proof.
    intros Hb Hc b t R U R'.
    destruct (tamper_keeps t (full_as_f B b))
      as [(Ep & _ & Ed)|[(Ep & Er & _ & Ee)|(Ed & Er & _ & Ee)]].
    - exact (full_block_bound Hb Hc b _ R U R' Ep Ed).
    - (* only the data hash may differ, and the proof of the root verifies against one only *)
      apply (recv_full_iff Hb) in R. apply (recv_full_iff Hb) in R'.
      destruct R as ((_ & _ & V1 & _) & _). destruct R' as ((_ & _ & V1' & _) & _).
      change (pverifies (f_rtp (tamper_f t (full_as_f B b)))
                (leafH (sha (f_rtr (tamper_f t (full_as_f B b)))))
                (f_dh (tamper_f t (full_as_f B b))) = true) in V1'.
      rewrite Ep, Er in V1'. left.
      change (b_entries (tamper_full B t b)) with (f_entries (tamper_f t (full_as_f B b))).
      rewrite Ee. cbn [BlockDataModel.full_as_f f_entries].
      rewrite (collect_id Hb _ U). split; [reflexivity|]. split; [exact Er|].
      exact (hdr_dh Hb _ _ _ _ V1 V1').
    - left. change (b_entries (tamper_full B t b)) with (f_entries (tamper_f t (full_as_f B b))).
      rewrite Ee. cbn [BlockDataModel.full_as_f f_entries].
      rewrite (collect_id Hb _ U). split; [reflexivity|]. split; [exact Er|exact Ed].
  Qed.

  (** the blobs are the entries of [cel_as_f], the audit of a blob is [entry_verifies] of its
      entry *)
  Lemma celestia_tamper : stmt_celestia_tamper B beq blen cat sha leafH nodeH emptyH.
  Proof.
    intros Hb Hc m bs bh t R Hbs m' bs' R'. apply recv_meta_iff in R. apply recv_meta_iff in R'.
    destruct (tamper_hdr Hb t (cel_as_f B (m, bs)) R R') as [(Ea & Er & Ed)|C]; [|right; exact C].
    destruct (forall_in_or
                (fun bl' => blob_ok bl' = true -> audit_blob m' bl' = true ->
                            In (bl_id bl', bl_txs bl') (map (fun bl => (bl_id bl, bl_txs bl)) bs))
                Coll bs') as [P|C]; [|left; exact (conj Ea (conj Er (conj Ed P)))|right; exact C].
    assert (Hes : forall e, In e (f_entries (cel_as_f B (m, bs))) ->
                            entry_verifies (m_rtr m) e = true /\ blen (e_id e) = 32).
    { intros e He. apply in_map_iff in He. destruct He as [bl [<- Hbl]].
      destruct (Hbs _ Hbl) as [Ok0 Au0]. split; [exact Au0|exact (blob_ok_len _ Ok0)]. }
    intros bl' Hbl'. apply in_map_iff in Hbl'. destruct Hbl' as [e' [<- He']].
    destruct (blob_ok _) eqn:Ok; [|left; intros X; discriminate X].
    destruct (audit_blob m' _) eqn:Au; [|left; intros _ X; discriminate X].
    destruct (tamper_bound Hb Hc (m_rtr m) t _ Hes e' He' (blob_ok_len _ Ok)) as [HI|C];
      [|left|right; exact C].
    - change (f_rtr (cel_as_f B (m, bs))) with (m_rtr m) in Er. rewrite <- Er. exact Au.
    - intros _ _. cbn [BlockDataModel.cel_as_f f_entries] in HI. rewrite map_map in HI. exact HI.
  Qed.

  (** finding F16: without the test of the blob's rollup id the loop reconstructs an audited blob
      for every rollup *)
  Lemma conductor_before_F16_fix_ignored_blob_id :
    stmt_conductor_before_F16_fix_ignored_blob_id B beq cat leafH nodeH emptyH.
  Proof.
    exact before_F16_one_blob.
  Qed.

  Lemma conductor_skips_foreign : stmt_conductor_skips_foreign B beq cat leafH nodeH emptyH.
  Proof.
    intros Hb. split.
    - intros hs bs r. apply reconstruct_filter.
    - intros m bl r Hne. unfold BlockDataModel.reconstruct.
      cbn [BlockDataModel.recon_blobs].
      destruct (beq (bl_id bl) r) eqn:E; [apply Hb in E; contradiction|].
      cbn [negb flat_map app]. rewrite app_nil_r. reflexivity.
  Qed.

  Lemma hdr_accepted_bh x bh rtr dh rtp rip ids : blen x = 32 ->
    hdr_accepted bh rtr dh rtp rip ids -> hdr_accepted x rtr dh rtp rip ids.
  Proof.
    intros Lx (H & R). split; [|exact R]. unfold BlockDataModel.hdr_ok in *.
    apply andb_prop in H. destruct H as [H Hd]. apply andb_prop in H. destruct H as [_ Hr].
    rewrite Hr, Hd, (proj2 (len32_iff x) Lx). reflexivity.
  Qed.

  Lemma block_hash_unbound : stmt_block_hash_unbound B beq blen cat sha leafH nodeH emptyH.
  Proof.
    intros Hb x Lx. split; [|split].
    - intros b R. apply (recv_full_iff Hb) in R. apply (recv_full_iff Hb).
      destruct R as (H & R). split; [exact (hdr_accepted_bh x _ _ _ _ _ _ Lx H)|exact R].
    - intros f R. apply recv_filtered_iff in R. apply recv_filtered_iff.
      destruct R as (H & R). split; [exact (hdr_accepted_bh x _ _ _ _ _ _ Lx H)|exact R].
    - intros m bl R Au m' bs'. subst m' bs'. apply recv_meta_iff in R. split.
      + apply recv_meta_iff. exact (hdr_accepted_bh x _ _ _ _ _ _ Lx R).
      + unfold BlockDataModel.reconstruct.
        cbn [BlockDataModel.tamper_cel BlockDataModel.f_as_cel BlockDataModel.tamper_f
             BlockDataModel.cel_as_f BlockDataModel.tamper_entries fst snd map
             f_hash f_entries f_rtr e_id e_txs e_proof
             BlockDataModel.recon_blobs BlockDataModel.take_header m_hash bl_hash bl_id].
        rewrite (proj2 (Hb (bl_id bl) (bl_id bl)) eq_refl). cbn [negb].
        rewrite (proj2 (Hb x x) eq_refl).
        unfold BlockDataModel.audit_blob in Au |- *.
        cbn [m_rtr bl_id bl_txs bl_proof]. rewrite Au. reflexivity.
  Qed.

  Lemma filtered_omission : stmt_filtered_omission B beq blen cat sha leafH nodeH emptyH.
  Proof.
    intros Hb f j R U. split; [|reflexivity].
    assert (U' : unique_ids (remove_nth j (f_entries f))).
    { unfold BlockDataSpec.unique_ids in U |- *. rewrite map_remove_nth.
      apply NoDup_remove_nth. exact U. }
    apply recv_filtered_iff in R. apply recv_filtered_iff. destruct R as (H & W & V).
    cbn [BlockDataModel.tamper_f BlockDataModel.tamper_entries BlockDataModel.tamper_ids
         f_hash f_entries f_rtr f_dh f_rtp f_rip f_all].
    rewrite (collect_id Hb _ U) in V. rewrite (collect_id Hb _ U').
    split; [exact H|]. split; apply forallb_remove_nth; assumption.
  Qed.

  Lemma same_ids_collect (Hb : BeqSpec) es es' e' :
    unique_ids es -> map e_id es' = map e_id es -> In e' es' -> In e' (collect es').
  Proof.
    intros U E H. rewrite collect_id; [exact H|exact Hb|].
    unfold BlockDataSpec.unique_ids. rewrite E. exact U.
  Qed.

  (** why each tampering of [filtered_named] is rejected: a surviving entry has the proof of a
      served entry but not its data *)
  Lemma named_rejected (Hb : BeqSpec) (Hc : CatInj) f t e0 e' :
    recv_filtered f = true -> unique_ids (f_entries f) -> In e0 (f_entries f) ->
    In e' (collect (f_entries (tamper_f t f))) ->
    e_proof e' = e_proof e0 -> entry_data e' <> entry_data e0 ->
    recv_filtered (tamper_f t f) = false \/ Coll.
  Proof.
    intros R U H0 HI Ep Hne.
    destruct (recv_filtered (tamper_f t f)) eqn:R'; [right|left; reflexivity].
    destruct (recv_filtered_entry Hb f R U e0 H0) as [V0 L0].
    apply recv_filtered_iff in R. apply recv_filtered_iff in R'.
    destruct R as (H & _). destruct R' as (H' & W' & V').
    destruct (tamper_hdr Hb t f H H') as [(_ & Er & _)|C]; [|exact C].
    rewrite Er in V'. rewrite forallb_forall in V', W'.
    destruct (proof_binds Hb Hc (f_rtr f) e0 e') as [E|C];
      [exact L0| |exact V0|apply V', HI|exact Ep|contradiction|exact C].
    apply entry_wf_len, W', (collect_incl Hb), HI.
  Qed.

  Lemma named_txs (Hb : BeqSpec) (Hc : CatInj) f t j e (G : entry B -> list B) :
    recv_filtered f = true -> unique_ids (f_entries f) -> nth_error (f_entries f) j = Some e ->
    tamper_entries t (f_entries f) = upd_nth j (fun e0 => set_txs e0 (G e0)) (f_entries f) ->
    G e <> e_txs e ->
    recv_filtered (tamper_f t f) = false \/ Coll.
  Proof.
    intros R U N Et Hne.
    apply (named_rejected Hb Hc f t e (set_txs e (G e)) R U (nth_error_In _ _ N));
      [|reflexivity|intros E; injection E as E; exact (Hne E)].
    change (f_entries (tamper_f t f)) with (tamper_entries t (f_entries f)). rewrite Et.
    apply (same_ids_collect Hb (f_entries f) _ _ U).
    - apply map_upd_nth_id. intros x. reflexivity.
    - apply (nth_error_In _ j). exact (nth_error_upd_same _ _ _ _ N).
  Qed.

  Lemma unique_nth es : unique_ids es -> forall j j2 e e2,
    nth_error es j = Some e -> nth_error es j2 = Some e2 -> e_id e = e_id e2 -> j = j2.
  Proof.
    unfold BlockDataSpec.unique_ids. intros U j j2 e e2 N N2 E.
    rewrite NoDup_nth_error in U. apply U.
    - rewrite map_length. apply nth_error_Some. rewrite N. discriminate.
    - rewrite (map_nth_error e_id _ _ N), (map_nth_error e_id _ _ N2), E. reflexivity.
  Qed.

  Lemma filtered_named : stmt_filtered_named B beq blen cat sha leafH nodeH emptyH.
  Proof.
    intros Hb Hc f j e R U N. pose proof (nth_error_In _ _ N) as He.
    repeat apply conj.
    - (* altered *) intros k x y Hk Hxy.
      apply (named_txs Hb Hc f _ j e (fun e0 => upd_nth k (fun _ => x) (e_txs e0)) R U N);
        [reflexivity|].
      intros E. apply Hxy. pose proof (nth_error_upd_same (fun _ => x) _ _ _ Hk) as H1.
      rewrite E, Hk in H1. injection H1 as H1. symmetry. exact H1.
    - (* reordered *) intros k y z Hy Hz Hyz.
      apply (named_txs Hb Hc f _ j e (fun e0 => swap_adj k (e_txs e0)) R U N); [reflexivity|].
      intros E. apply Hyz. pose proof (swap_adj_nth _ _ _ _ Hy Hz) as H1.
      rewrite E, Hy in H1. injection H1 as H1. exact H1.
    - (* truncated *) intros k Hk.
      apply (named_txs Hb Hc f _ j e (fun e0 => remove_nth k (e_txs e0)) R U N); [reflexivity|].
      intros E. pose proof (length_remove_nth _ _ Hk) as H1. rewrite E in H1. lia.
    - (* extended: repeated element *) intros k Hk.
      apply (named_txs Hb Hc f _ j e (fun e0 => dup_nth k (e_txs e0)) R U N); [reflexivity|].
      intros E. pose proof (length_dup_nth _ _ Hk) as H1. rewrite E in H1. lia.
    - (* extended: appended element *) intros x.
      apply (named_txs Hb Hc f _ j e (fun e0 => e_txs e0 ++ [x]) R U N); [reflexivity|].
      intros E. pose proof (app_length (e_txs e) [x]) as H1. rewrite E in H1. cbn [length] in H1. lia.
    - (* attributed to another rollup: the proof still binds the old id *) intros id Hne Hnot.
      apply (named_rejected Hb Hc f _ e (set_id e id) R U He);
        [|reflexivity|intros E; injection E as E; exact (Hne E)].
      change (f_entries (tamper_f (TReid j id) f))
        with (upd_nth j (fun e0 => set_id e0 id) (f_entries f)).
      rewrite (upd_nth_split _ _ _ _ N). apply collect_last; [exact Hb|exact Hnot].
    - (* carrying another rollup's proof: that proof binds the other id *) intros j2 e2 N2 Hj.
      apply (named_rejected Hb Hc f _ e2 (set_proof e (e_proof e2)) R U (nth_error_In _ _ N2));
        [|reflexivity|intros E; injection E as E _; exact (Hj (eq_sym (unique_nth _ U _ _ _ _ N N2 E)))].
      cbn [BlockDataModel.tamper_f BlockDataModel.tamper_entries f_entries]. rewrite N, N2.
      apply (same_ids_collect Hb (f_entries f) _ _ U).
      + rewrite !map_upd_nth_id; [reflexivity|intros x; reflexivity|intros x; reflexivity].
      + apply (nth_error_In _ j). rewrite nth_error_upd_other by exact Hj.
        exact (nth_error_upd_same _ _ _ _ N).
  Qed.
End Tamper.

Print Assumptions entry_binding.
Print Assumptions full_tamper.
Print Assumptions filtered_tamper.
Print Assumptions celestia_tamper.
Print Assumptions filtered_named.
Print Assumptions block_hash_unbound.
Print Assumptions filtered_omission.
Print Assumptions conductor_before_F16_fix_ignored_blob_id.
Print Assumptions conductor_skips_foreign.
