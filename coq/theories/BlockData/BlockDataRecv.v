(** C07 -- what the receivers do: the [IndexMap] they [collect] the rollup entries into, each
    receiver ([recv_meta], [recv_filtered], [recv_full]) as the conjunction of its checks, and the
    conductor's reconstruction loop with and without the rollup id test of finding F16. *)
From Astria Require Import BlockData.BlockDataModel BlockData.BlockDataSpec BlockData.BlockDataGroup.

Section Recv.
  Context {B : Type} {beq : B -> B -> bool} {blen : B -> N} {cat : B -> B -> B}
    {sha leafH : B -> B} {nodeH : B -> B -> B} {emptyH : B}.
  Local Notation im_collect := (im_collect B beq).
  Local Notation keyed := (keyed B).
  Local Notation find_entry := (find_entry B beq).
  Local Notation collect := (collect B beq).
  Local Notation entry_data := (entry_data B).
  Local Notation unique_ids := (unique_ids B).
  Local Notation mroot := (mroot B nodeH emptyH).
  Local Notation txs_root := (txs_root B leafH nodeH emptyH).
  Local Notation data_root := (data_root B cat leafH nodeH emptyH).
  Local Notation ids_root := (ids_root B leafH nodeH emptyH).
  Local Notation proof_wf := (proof_wf B).
  Local Notation pverifies := (pverifies B beq nodeH).
  Local Notation len32 := (len32 B blen).
  Local Notation hdr_ok := (hdr_ok B blen).
  Local Notation entry_wf := (entry_wf B blen).
  Local Notation entry_verifies := (entry_verifies B beq cat leafH nodeH emptyH).
  Local Notation blob_ok := (blob_ok B blen).
  Local Notation recv_full := (recv_full B beq blen cat sha leafH nodeH emptyH).
  Local Notation recv_filtered := (recv_filtered B beq blen cat sha leafH nodeH emptyH).
  Local Notation recv_meta := (recv_meta B beq blen sha leafH nodeH emptyH).

  Hypothesis Hbeq : BeqSpec B beq.

  Lemma keyed_fst es : map fst (keyed es) = map e_id es.
  Proof. unfold BlockDataModel.keyed. rewrite map_map. reflexivity. Qed.
  Lemma keyed_snd es : map snd (keyed es) = es.
  Proof. unfold BlockDataModel.keyed. rewrite map_map. cbn. apply map_id. Qed.
  Lemma keyed_rev es : rev (keyed es) = keyed (rev es).
  Proof. symmetry. apply map_rev. Qed.
  Lemma data_fst es : map fst (map entry_data es) = map e_id es.
  Proof. rewrite map_map. reflexivity. Qed.

  Lemma find_entry_id es id e : find_entry es id = Some e -> e_id e = id /\ In e es.
  Proof.
    unfold BlockDataModel.find_entry. intros H. apply (im_get_In B beq Hbeq) in H.
    unfold BlockDataModel.keyed in H. apply in_map_iff in H. destruct H as (e' & E & Hin).
    injection E as E1 E2. subst. split; [reflexivity|assumption].
  Qed.
  Lemma find_entry_none es id : ~ In id (map e_id es) -> find_entry es id = None.
  Proof. intros H. apply (im_get_notin B beq Hbeq). rewrite keyed_fst. exact H. Qed.
  Lemma find_entry_unique es e : unique_ids es -> In e es -> find_entry es (e_id e) = Some e.
  Proof.
    intros ND H. unfold BlockDataModel.find_entry.
    apply (im_get_unique B beq Hbeq); [rewrite keyed_fst; exact ND|].
    unfold BlockDataModel.keyed. apply in_map_iff. exists e. split; [reflexivity|exact H].
  Qed.
  Lemma find_entry_only es e :
    In e es -> (forall e', In e' es -> e_id e' = e_id e -> e' = e) -> find_entry es (e_id e) = Some e.
  Proof.
    intros H Only. destruct (key_get_Some B beq Hbeq _ (keyed es) (e_id e)) as [e' F].
    { rewrite keyed_fst. apply in_map. exact H. }
    fold (find_entry es (e_id e)) in F. rewrite F. f_equal.
    destruct (find_entry_id _ _ _ F) as [E Hin]. exact (Only e' Hin E).
  Qed.

  Lemma collect_id es : unique_ids es -> collect es = es.
  Proof.
    intros ND. unfold BlockDataModel.collect.
    rewrite (im_collect_nodup_id B beq Hbeq) by (rewrite keyed_fst; exact ND). apply keyed_snd.
  Qed.

  Lemma collect_In es e : In e (collect es) <-> find_entry (rev es) (e_id e) = Some e.
  Proof.
    unfold BlockDataModel.collect, BlockDataModel.find_entry. rewrite <- keyed_rev, in_map_iff. split.
    - intros ([k e'] & E & H). cbn in E. subst e'. apply (im_collect_In B beq Hbeq) in H.
      rewrite keyed_rev in H |- *. destruct (find_entry_id _ _ _ H) as [<- _]. exact H.
    - intros H. exists (e_id e, e). split; [reflexivity|]. apply (im_collect_In B beq Hbeq). exact H.
  Qed.

  Lemma collect_incl es e : In e (collect es) -> In e es.
  Proof. intros H. apply collect_In, find_entry_id in H. apply in_rev. apply H. Qed.

  Lemma collect_last l1 e l2 : ~ In (e_id e) (map e_id l2) -> In e (collect (l1 ++ e :: l2)).
  Proof.
    intros Hn. apply collect_In. rewrite rev_app_distr. cbn [rev]. rewrite <- app_assoc.
    unfold BlockDataModel.find_entry, BlockDataModel.keyed. rewrite map_app, (im_get_app B beq).
    fold (keyed (rev l2)). fold (find_entry (rev l2) (e_id e)).
    rewrite find_entry_none by (rewrite map_rev, <- in_rev; exact Hn).
    cbn. rewrite (bq_refl B beq Hbeq). reflexivity.
  Qed.

  Lemma collect_nodup_ids es : unique_ids (collect es).
  Proof.
    unfold BlockDataSpec.unique_ids.
    replace (map e_id (collect es)) with (map fst (im_collect (keyed es)));
      [apply (im_collect_nodup B beq Hbeq)|].
    unfold BlockDataModel.collect. rewrite map_map. apply map_ext_in. intros [k e] H. cbn.
    apply (im_collect_In B beq Hbeq) in H. rewrite keyed_rev in H.
    symmetry. apply (find_entry_id _ _ _ H).
  Qed.

  Lemma len32_iff x : len32 x = true <-> blen x = 32.
  Proof. apply N.eqb_eq. Qed.
  Lemma len32_all l : forallb len32 l = true -> forall i, In i l -> blen i = 32.
  Proof. intros H i Hi. rewrite forallb_forall in H. apply len32_iff. exact (H i Hi). Qed.
  Lemma entry_wf_len e : entry_wf e = true -> blen (e_id e) = 32.
  Proof. intros H. apply andb_prop in H. apply len32_iff. apply H. Qed.
  Lemma wf_ids32 es : forallb entry_wf es = true -> forallb len32 (map e_id es) = true.
  Proof.
    rewrite !forallb_forall. intros W id Hid. apply in_map_iff in Hid.
    destruct Hid as (e & <- & He). apply W, andb_prop in He. apply He.
  Qed.
  Lemma blob_ok_len bl : blob_ok bl = true -> blen (bl_id bl) = 32.
  Proof. intros H. apply andb_prop in H. destruct H as [H _]. apply andb_prop in H. apply len32_iff. apply H. Qed.
  Lemma pverifies_wf p l r : pverifies p l r = true -> proof_wf p = true.
  Proof. intros H. apply andb_prop in H. apply H. Qed.

  Definition rollup_leaf_pre (kv : B * list B) : B := cat (fst kv) (txs_root (snd kv)).

  Lemma data_root_leaves d : data_root d = mroot (map leafH (map rollup_leaf_pre d)).
  Proof.
    unfold BlockDataModel.data_root, BlockDataModel.rollup_leaf. rewrite map_map. reflexivity.
  Qed.

  (** that the two proofs are well formed is part of [pverifies] *)
  Definition hdr_accepted (bh rtr dh : B) (rtp rip : proof B) (ids : list B) : Prop :=
    hdr_ok bh rtr dh = true /\ forallb len32 ids = true /\
    pverifies rtp (leafH (sha rtr)) dh = true /\
    pverifies rip (leafH (sha (ids_root ids))) dh = true.

  Lemma recv_meta_iff m : recv_meta m = true <->
    hdr_accepted (m_hash m) (m_rtr m) (m_dh m) (m_rtp m) (m_rip m) (m_ids m).
  Proof.
    unfold BlockDataModel.recv_meta, hdr_accepted. rewrite !andb_true_iff. split.
    - intros (((((H & L) & _) & _) & V1) & V2). repeat split; assumption.
    - intros (H & L & V1 & V2). repeat split; try assumption; eapply pverifies_wf; eassumption.
  Qed.

  Lemma recv_filtered_iff f : recv_filtered f = true <->
    hdr_accepted (f_hash f) (f_rtr f) (f_dh f) (f_rtp f) (f_rip f) (f_all f) /\
    forallb entry_wf (f_entries f) = true /\
    forallb (entry_verifies (f_rtr f)) (collect (f_entries f)) = true.
  Proof.
    unfold BlockDataModel.recv_filtered, hdr_accepted. cbv zeta. rewrite !andb_true_iff. split.
    - intros (((((((H & _) & _) & W) & L) & V1) & Ve) & V2). repeat split; assumption.
    - intros ((H & L & V1 & V2) & W & Ve).
      repeat split; try assumption; eapply pverifies_wf; eassumption.
  Qed.

  (** the lengths of the ids are checked entry by entry ([entry_wf]) *)
  Lemma recv_full_iff b : recv_full b = true <->
    hdr_accepted (b_hash b) (b_rtr b) (b_dh b) (b_rtp b) (b_rip b)
                 (map e_id (collect (b_entries b))) /\
    forallb entry_wf (b_entries b) = true /\
    forallb (entry_verifies (b_rtr b)) (collect (b_entries b)) = true /\
    pverifies (b_rtp b) (leafH (sha (data_root (map entry_data (collect (b_entries b))))))
              (b_dh b) = true.
  Proof.
    unfold BlockDataModel.recv_full, hdr_accepted. cbv zeta. rewrite !andb_true_iff. split.
    - intros (((((((H & _) & _) & W) & V1) & Vd) & V2) & Ve). repeat split; try assumption.
      apply wf_ids32. rewrite forallb_forall in W |- *. intros e He. apply W, collect_incl, He.
    - intros ((H & L & V1 & V2) & W & Ve & Vd).
      repeat split; try assumption; eapply pverifies_wf; eassumption.
  Qed.

  Lemma recv_filtered_entry f : recv_filtered f = true -> unique_ids (f_entries f) ->
    forall e, In e (f_entries f) -> entry_verifies (f_rtr f) e = true /\ blen (e_id e) = 32.
  Proof.
    intros H U e Hin. apply recv_filtered_iff in H. destruct H as (_ & W & V).
    rewrite (collect_id _ U) in V. rewrite forallb_forall in W, V.
    split; [apply V|apply entry_wf_len, W]; exact Hin.
  Qed.
  Lemma recv_full_entry b : recv_full b = true -> unique_ids (b_entries b) ->
    forall e, In e (b_entries b) -> entry_verifies (b_rtr b) e = true /\ blen (e_id e) = 32.
  Proof.
    intros H U e Hin. apply recv_full_iff in H. destruct H as (_ & W & V & _).
    rewrite (collect_id _ U) in V. rewrite forallb_forall in W, V.
    split; [apply V|apply entry_wf_len, W]; exact Hin.
  Qed.

  (** the conductor: [reconstruct] is [reconstruct_before_F16_fix] (BlockDataSpec.v: no test of
      the blob's rollup id) on the blobs of the own rollup, so the inversions are about the latter *)
  Local Notation mem := (mem B beq).
  Local Notation audit_blob := (audit_blob B beq cat leafH nodeH emptyH).
  Local Notation take_header := (take_header B beq cat leafH nodeH emptyH).
  Local Notation recon_blobs := (recon_blobs B beq cat leafH nodeH emptyH).
  Local Notation reconstruct := (reconstruct B beq cat leafH nodeH emptyH).
  Local Notation recon_blobs_before_F16_fix := (recon_blobs_before_F16_fix B beq cat leafH nodeH emptyH).
  Local Notation reconstruct_before_F16_fix := (reconstruct_before_F16_fix B beq cat leafH nodeH emptyH).

  Lemma recon_blobs_filter r bs : forall hs,
    recon_blobs r hs bs = recon_blobs_before_F16_fix hs (filter (fun b => beq (bl_id b) r) bs).
  Proof.
    induction bs as [|b bs IH]; intros hs; [reflexivity|].
    cbn [BlockDataModel.recon_blobs filter]. destruct (beq (bl_id b) r); cbn [negb].
    - cbn [BlockDataSpec.recon_blobs_before_F16_fix].
      destruct (BlockDataModel.take_header B beq cat leafH nodeH emptyH hs b) as [[h hs']|].
      + rewrite (IH hs'). reflexivity.
      + apply IH.
    - apply IH.
  Qed.
  Lemma reconstruct_filter hs bs r :
    reconstruct hs bs r = reconstruct_before_F16_fix hs (filter (fun b => beq (bl_id b) r) bs) r.
  Proof.
    unfold BlockDataModel.reconstruct, BlockDataSpec.reconstruct_before_F16_fix.
    rewrite recon_blobs_filter. reflexivity.
  Qed.

  Lemma before_F16_one_blob :
    stmt_conductor_before_F16_fix_ignored_blob_id B beq cat leafH nodeH emptyH.
  Proof.
    intros h bl r H1 H2. unfold BlockDataSpec.reconstruct_before_F16_fix.
    cbn [BlockDataSpec.recon_blobs_before_F16_fix BlockDataModel.take_header]. rewrite H1, H2. reflexivity.
  Qed.
  Lemma before_F16_no_blob h r : mem r (m_ids h) = false ->
    reconstruct_before_F16_fix [h] [] r = [(m_hash h, [])].
  Proof.
    intros H. unfold BlockDataSpec.reconstruct_before_F16_fix.
    cbn [BlockDataSpec.recon_blobs_before_F16_fix flat_map app]. rewrite H. reflexivity.
  Qed.

  Lemma take_header_inv hs bl h hs' : take_header hs bl = Some (h, hs') ->
    In h hs /\ incl hs' hs /\ audit_blob h bl = true.
  Proof.
    revert h hs'. induction hs as [|h0 hs IH]; intros h hs' T; cbn [BlockDataModel.take_header] in T;
      [discriminate|].
    destruct (beq (m_hash h0) (bl_hash bl)).
    - destruct (audit_blob h0 bl) eqn:A; [|discriminate]. injection T as <- <-.
      split; [left; reflexivity|]. split; [apply incl_tl, incl_refl|exact A].
    - destruct (take_header hs bl) as [[h1 r1]|]; [|discriminate]. injection T as <- <-.
      destruct (IH _ _ eq_refl) as (I1 & I2 & I3).
      split; [right; exact I1|]. split; [|exact I3].
      intros x [Hx|Hx]; [left; exact Hx|right; apply I2; exact Hx].
  Qed.

  Lemma recon_before_inv bs : forall hs out hs2,
    recon_blobs_before_F16_fix hs bs = (out, hs2) ->
    incl hs2 hs /\
    forall h txs, In (h, txs) out ->
      exists bl m, In bl bs /\ In m hs /\ audit_blob m bl = true /\ txs = bl_txs bl.
  Proof.
    induction bs as [|bl bs IH]; intros hs out hs2 R;
      cbn [BlockDataSpec.recon_blobs_before_F16_fix] in R.
    - injection R as <- <-. split; [apply incl_refl|]. intros h txs [].
    - destruct (take_header hs bl) as [[h1 hs1]|] eqn:T.
      + destruct (recon_blobs_before_F16_fix hs1 bs) as [out1 hs3] eqn:R1.
        injection R as <- <-.
        destruct (take_header_inv _ _ _ _ T) as (T1 & T2 & T3).
        destruct (IH _ _ _ R1) as (I1 & I2).
        split; [intros x Hx; apply T2, I1; exact Hx|].
        intros h txs [Hx|Hx].
        * injection Hx as _ <-. exists bl, h1. repeat split; try assumption. left; reflexivity.
        * destruct (I2 _ _ Hx) as (bl0 & m0 & J1 & J2 & J3).
          exists bl0, m0. split; [right; exact J1|]. split; [apply T2; exact J2|exact J3].
      + destruct (IH _ _ _ R) as (I1 & I2). split; [exact I1|].
        intros h txs Hx. destruct (I2 _ _ Hx) as (bl0 & m0 & J1 & J2).
        exists bl0, m0. split; [right; exact J1|exact J2].
  Qed.

  Lemma reconstruct_one_inv m bs r h txs : In (h, txs) (reconstruct [m] bs r) ->
    (exists bl, In bl bs /\ bl_id bl = r /\ audit_blob m bl = true /\ txs = bl_txs bl) \/
    (mem r (m_ids m) = false /\ txs = []).
  Proof.
    rewrite reconstruct_filter.
    unfold BlockDataSpec.reconstruct_before_F16_fix.
    destruct (recon_blobs_before_F16_fix [m] _) as [out hs2] eqn:R.
    destruct (recon_before_inv _ _ _ _ R) as (I1 & I2). intros Hx. apply in_app_or in Hx.
    destruct Hx as [Hx|Hx].
    - left. destruct (I2 _ _ Hx) as (bl & m0 & J1 & [<-|[]] & J3 & J4).
      apply filter_In in J1. destruct J1 as [J1 E]. apply Hbeq in E.
      exists bl. repeat split; assumption.
    - right. apply in_flat_map in Hx. destruct Hx as (m0 & Hm & Hx).
      apply I1 in Hm. destruct Hm as [<-|[]].
      destruct (mem r (m_ids m)); [destruct Hx|]. destruct Hx as [Hx|[]].
      injection Hx as _ <-. split; reflexivity.
  Qed.
End Recv.

Arguments rollup_leaf_pre : clear implicits.
Arguments hdr_accepted : clear implicits.
