(** C15 — proofs about the validation of extended commits
    ([validate_vote_extensions], [validate_against_last_commit], [validate_proposal],
    [prepare_proposal]).  The signature predicate [sig_ok] is arbitrary. *)
From Astria Require Import Base.Lists Oracle.OracleSpec.

Lemma memN_In a l : memN a l = true <-> In a l.
Proof.
  induction l as [|x r IH]; cbn [memN In]; [split; [discriminate|intros []]|].
  rewrite orb_true_iff, N.eqb_eq, IH. reflexivity.
Qed.

Lemma memN_false a l : memN a l = false <-> ~ In a l.
Proof. rewrite <- memN_In. destruct (memN a l); split; congruence. Qed.

Lemma flag_eqb_eq a b : flag_eqb a b = true <-> a = b.
Proof. destruct a, b; cbn; split; congruence. Qed.

Lemma lookupN_In {A} k (l : list (N * A)) a : lookupN k l = Some a -> In (k, a) l.
Proof.
  induction l as [|[k' a'] r IH]; cbn [lookupN]; [discriminate|].
  destruct (N.eqb_spec k' k) as [->|Hne]; intros H.
  - inversion H; subst. left; reflexivity.
  - right. apply IH; exact H.
Qed.

Lemma In_lookupN {A} k (l : list (N * A)) a : In (k, a) l -> exists b, lookupN k l = Some b.
Proof.
  induction l as [|[k' a'] r IH]; intros H; [destruct H|]. cbn [lookupN].
  destruct (N.eqb_spec k' k) as [->|Hne]; [eexists; reflexivity|].
  destruct H as [E|H]; [inversion E; subst; contradiction|]. apply IH; exact H.
Qed.

Lemma rbind_ok {A B} (x : res A) (f : A -> res B) b :
  rbind x f = Ok b <-> exists a, x = Ok a /\ f a = Ok b.
Proof.
  destruct x as [a|e|]; cbn [rbind].
  2,3: split; [discriminate|intros (a' & E & _); discriminate].
  split.
  - intros H. exists a. split; [reflexivity|exact H].
  - intros (a' & E & H). injection E as <-. exact H.
Qed.

Lemma lenN_eq {A B} (a : list A) (b : list B) : (lenN a =? lenN b) = true <-> length a = length b.
Proof. unfold lenN. rewrite N.eqb_eq. split; [apply Nat2N.inj|congruence]. Qed.

Lemma Forall2_len {A B} (R : A -> B -> Prop) l1 l2 : Forall2 R l1 l2 -> length l1 = length l2.
Proof. induction 1; cbn; congruence. Qed.

Lemma required_fits t2 : t2 <= U64_MAX -> t2 / 3 + 1 <= U64_MAX.
Proof. intros H. pose proof (N.mul_div_le t2 3 ltac:(lia)). unfold U64_MAX in *. lia. Qed.

Lemma required_le total sub : total * 2 / 3 + 1 <= sub <-> 2 * total < 3 * sub.
Proof.
  pose proof (N.div_mod (total * 2) 3 ltac:(lia)) as Hdm.
  pose proof (N.mod_upper_bound (total * 2) 3 ltac:(lia)) as Hmb.
  set (q := total * 2 / 3) in *. set (r := (total * 2) mod 3) in *. clearbody q r. lia.
Qed.

Lemma vve_tail_eq total sub :
  vve_tail total sub =
  if total =? 0 then Err EZeroTotal
  else if total * 2 <=? U64_MAX
       then if total * 2 / 3 + 1 <=? sub then Ok tt else Err EInsufficient
       else Err EMulOverflow.
Proof.
  unfold vve_tail, checked_mul, checked_add. destruct (total =? 0); [reflexivity|].
  destruct (N.leb_spec (total * 2) U64_MAX) as [Hm|Hm]; [|reflexivity].
  destruct (N.leb_spec (total * 2 / 3 + 1) U64_MAX) as [_|Ha]; [reflexivity|].
  apply required_fits in Hm. lia.
Qed.

Lemma vve_tail_ok total sub : sub <= total ->
  (vve_tail total sub = Ok tt <-> 2 * total <= U64_MAX /\ 2 * total < 3 * sub).
Proof.
  intros Hs. rewrite vve_tail_eq, <- required_le.
  destruct (N.eqb_spec total 0) as [->|_].
  { split; [discriminate|]. intros [_ H]. cbn in H. lia. }
  destruct (N.leb_spec (total * 2) U64_MAX) as [Hm|Hm].
  2:{ split; [discriminate|]. intros [H _]. lia. }
  destruct (N.leb_spec (total * 2 / 3 + 1) sub) as [Hr|Hr].
  - split; [intros _; split; [lia|exact Hr]|reflexivity].
  - split; [discriminate|]. intros [_ H]. lia.
Qed.

Lemma vve_tail_overflow total sub : U64_MAX < 2 * total -> vve_tail total sub = Err EMulOverflow.
Proof.
  intros Hm. rewrite vve_tail_eq.
  destruct (N.eqb_spec total 0) as [->|_]; [unfold U64_MAX in Hm; lia|].
  destruct (N.leb_spec (total * 2) U64_MAX); [lia|reflexivity].
Qed.

Lemma vve_tail_no_overflow total sub :
  vve_tail total sub <> Err ESubOverflow /\ vve_tail total sub <> Err EAddOverflow.
Proof.
  rewrite vve_tail_eq.
  destruct (total =? 0), (total * 2 <=? U64_MAX), (total * 2 / 3 + 1 <=? sub); split; discriminate.
Qed.

Section Proofs.
  Variable Key : Type.
  Variable Sig : Type.
  Variable sig_ok : Key -> ext -> N -> N -> N -> Sig -> bool.

  Local Notation vote := (vote Sig).
  Local Notation state := (state Key).
  Local Notation vve_loop := (vve_loop Key Sig sig_ok).
  Local Notation validate_vote_extensions := (validate_vote_extensions Key Sig sig_ok).
  Local Notation match_votes := (match_votes Sig).
  Local Notation prepare_proposal := (prepare_proposal Key Sig sig_ok).
  Local Notation v_addr := (v_addr Sig).
  Local Notation v_power := (v_power Sig).
  Local Notation v_flag := (v_flag Sig).
  Local Notation v_ext := (v_ext Sig).
  Local Notation v_sig := (v_sig Sig).
  Local Notation ec_round := (ec_round Sig).
  Local Notation ec_votes := (ec_votes Sig).
  Local Notation pruned := (pruned Sig).
  Local Notation prune := (prune Sig).
  Local Notation prune_vote := (prune_vote Sig).
  Local Notation all_ve_ids := (all_ve_ids Sig).
  Local Notation is_commit := (is_commit Sig).
  Local Notation total_power := (total_power Sig).
  Local Notation submitted_power := (submitted_power Sig).
  Local Notation signed_by_attributed := (signed_by_attributed Key Sig sig_ok).
  Local Notation vote_wf := (vote_wf Key Sig sig_ok).
  Local Notation votes_wf := (votes_wf Key Sig sig_ok).
  Local Notation vote_matches := (vote_matches Sig).

  Lemma total_power_cons v r : total_power (v :: r) = v_power v + total_power r.
  Proof. reflexivity. Qed.

  Lemma submitted_power_cons v r :
    submitted_power (v :: r) =
    (if is_commit v then v_power v else 0) + submitted_power r.
  Proof.
    unfold OracleSpec.submitted_power. cbn [filter]. destruct (is_commit v); reflexivity.
  Qed.

  Lemma submitted_le_total vs : submitted_power vs <= total_power vs.
  Proof.
    induction vs as [|v r IH]; [cbn; lia|].
    rewrite submitted_power_cons, total_power_cons. destruct (is_commit v); lia.
  Qed.

  Definition loop_post (st : state) (h round : N) (vs : list vote) (seen : list N)
      (total sub : N) (ts : N * N) : Prop :=
    fresh (map v_addr vs) seen /\ Forall (vote_wf st h round) vs /\
    ts = (total + total_power vs, sub + submitted_power vs).

  Lemma loop_post_cons st h round v r seen total sub ts :
    ~ In (v_addr v) seen -> vote_wf st h round v ->
    loop_post st h round r (v_addr v :: seen) (total + v_power v)
      (if is_commit v then sub + v_power v else sub) ts ->
    loop_post st h round (v :: r) seen total sub ts.
  Proof.
    intros Hns Hv (Hf & Hwf & ->). unfold loop_post. cbn [map].
    split; [apply fresh_cons; split; assumption|]. split; [constructor; assumption|].
    rewrite total_power_cons, submitted_power_cons. destruct (is_commit v); f_equal; lia.
  Qed.

  Lemma vve_loop_spec st h round : forall vs seen total sub, sub <= total ->
    match vve_loop st h round vs seen total sub with
    | Ok ts => loop_post st h round vs seen total sub ts
    | Err e => In e [EDup; ETotalOverflow; ESigMissing; ENoKey; EBadSig; ENcExt; ENcSig]
    | Panic => True
    end.
  Proof.
    induction vs as [|v r IH]; intros seen total sub Hs; cbn [OracleModel.vve_loop].
    { unfold loop_post, OracleSpec.total_power, OracleSpec.submitted_power. cbn [map filter sumN].
      rewrite !N.add_0_r. split; [apply fresh_nil|]. split; [constructor|reflexivity]. }
    destruct (memN (v_addr v) seen) eqn:Emem; [cbn; tauto|]. apply memN_false in Emem.
    unfold checked_add.
    destruct (N.leb_spec (total + v_power v) U64_MAX) as [Hle|_]; [|cbn; tauto].
    change (flag_eqb (v_flag v) FCommit) with (is_commit v).
    destruct (is_commit v) eqn:Ec.
    - destruct (v_sig v) as [sg|] eqn:Esig; [|cbn; tauto].
      (* [sub <= total], and the same power has just been added to [total] without overflow *)
      destruct (N.leb_spec (sub + v_power v) U64_MAX) as [_|Hgt]; [|lia].
      destruct (lookupN (v_addr v) (st_vals Key st)) as [k|] eqn:Ek; [|cbn; tauto].
      destruct (height_msg h) as [hm|] eqn:Eh; [|exact I].
      destruct (sig_ok k (v_ext v) hm round (st_chain Key st) sg) eqn:Eok; [|cbn; tauto].
      specialize (IH (v_addr v :: seen) (total + v_power v) (sub + v_power v) ltac:(lia)).
      destruct (vve_loop st h round r _ _ _) as [ts|e|]; [|exact IH|exact I].
      apply loop_post_cons; [exact Emem| |rewrite Ec; exact IH].
      unfold OracleSpec.vote_wf. rewrite Ec. exists k, sg, hm. repeat split; assumption.
    - destruct (ext_is_empty (v_ext v)) eqn:Eext; cbn [negb]; [|cbn; tauto].
      destruct (v_sig v) as [sg|] eqn:Esig; cbn [is_some]; [cbn; tauto|].
      specialize (IH (v_addr v :: seen) (total + v_power v) sub ltac:(lia)).
      destruct (vve_loop st h round r _ _ _) as [ts|e|]; [|exact IH|exact I].
      apply loop_post_cons; [exact Emem| |rewrite Ec; exact IH].
      unfold OracleSpec.vote_wf. rewrite Ec. split; assumption.
  Qed.

  Lemma vve_loop_wf st h round : forall vs seen total sub,
    sub <= total -> total <= U64_MAX ->
    fresh (map v_addr vs) seen -> Forall (vote_wf st h round) vs ->
    vve_loop st h round vs seen total sub =
    if total + total_power vs <=? U64_MAX
    then Ok (total + total_power vs, sub + submitted_power vs) else Err ETotalOverflow.
  Proof.
    induction vs as [|v r IH]; intros seen total sub Hs Ht Hf Hwf.
    { unfold OracleSpec.total_power, OracleSpec.submitted_power.
      cbn [OracleModel.vve_loop map filter sumN]. rewrite !N.add_0_r.
      destruct (N.leb_spec total U64_MAX); [reflexivity|lia]. }
    cbn [map] in Hf. apply fresh_cons in Hf as [Hns Hf]. apply memN_false in Hns.
    apply Forall_cons_iff in Hwf as [Hv Hwf].
    cbn [OracleModel.vve_loop].
    rewrite Hns, total_power_cons, submitted_power_cons, !N.add_assoc. unfold checked_add.
    destruct (N.leb_spec (total + v_power v) U64_MAX) as [Hle|Hgt].
    2:{ destruct (N.leb_spec (total + v_power v + total_power r) U64_MAX); [lia|reflexivity]. }
    unfold OracleSpec.vote_wf, OracleSpec.is_commit in Hv |- *.
    destruct (flag_eqb (v_flag v) FCommit).
    - destruct Hv as (k & sg & hm & -> & -> & -> & ->).
      destruct (N.leb_spec (sub + v_power v) U64_MAX); [|lia].
      apply IH; [lia|assumption..].
    - destruct Hv as [-> ->]. cbn [negb is_some]. rewrite N.add_0_r.
      apply IH; [lia|assumption..].
  Qed.

  Lemma vve_loop_inv st h ec ts :
    vve_loop st h (ec_round ec) (ec_votes ec) [] 0 0 = Ok ts ->
    votes_wf st h ec /\ ts = (total_power (ec_votes ec), submitted_power (ec_votes ec)).
  Proof.
    intros H. pose proof (vve_loop_spec st h (ec_round ec) (ec_votes ec) [] 0 0 (N.le_refl 0)) as Hp.
    rewrite H in Hp. destruct Hp as ([Hnd _] & Hwf & ->). split; [split; assumption|reflexivity].
  Qed.

  Lemma validate_wf st h ec : votes_wf st h ec ->
    validate_vote_extensions st h ec =
    if total_power (ec_votes ec) <=? U64_MAX
    then vve_tail (total_power (ec_votes ec)) (submitted_power (ec_votes ec))
    else Err ETotalOverflow.
  Proof.
    intros [Hnd Hwf]. unfold OracleModel.validate_vote_extensions.
    rewrite vve_loop_wf;
      [|lia|unfold U64_MAX; lia|split; [exact Hnd|intros a _ []]|exact Hwf].
    rewrite !N.add_0_l. destruct (_ <=? _); reflexivity.
  Qed.

  Theorem threshold_exact : stmt_threshold_exact Key Sig sig_ok.
  Proof.
    intros st h ec. split.
    - unfold OracleModel.validate_vote_extensions. rewrite rbind_ok.
      intros (ts & Hloop & Htail). apply vve_loop_inv in Hloop as [Hwf ->]. cbn [fst snd] in Htail.
      apply vve_tail_ok in Htail; [|apply submitted_le_total]. split; [exact Hwf|exact Htail].
    - intros (Hwf & Hb & Hthr). rewrite (validate_wf _ _ _ Hwf).
      destruct (N.leb_spec (total_power (ec_votes ec)) U64_MAX); [|lia].
      apply vve_tail_ok; [apply submitted_le_total|split; assumption].
  Qed.

  Theorem threshold_overflow : stmt_threshold_overflow Key Sig sig_ok.
  Proof.
    intros st h ec Hwf Hov. rewrite (validate_wf _ _ _ Hwf).
    destruct (total_power (ec_votes ec) <=? U64_MAX); [right|left; reflexivity].
    apply vve_tail_overflow; exact Hov.
  Qed.

  Theorem no_spurious_overflow : stmt_no_spurious_overflow Key Sig sig_ok.
  Proof.
    intros st h ec. unfold OracleModel.validate_vote_extensions.
    pose proof (vve_loop_spec st h (ec_round ec) (ec_votes ec) [] 0 0 (N.le_refl 0)) as Hp.
    destruct (vve_loop st h (ec_round ec) (ec_votes ec) [] 0 0) as [ts|e|]; cbn [rbind].
    - apply vve_tail_no_overflow.
    - cbn [In] in Hp. split; intros E; injection E as ->; intuition discriminate.
    - split; discriminate.
  Qed.

  Lemma votes_wf_signed st h ec : votes_wf st h ec ->
    forall v, In v (ec_votes ec) -> is_commit v = true ->
              signed_by_attributed st h (ec_round ec) v.
  Proof.
    intros [_ Hwf] v Hin Hc. rewrite Forall_forall in Hwf. specialize (Hwf v Hin).
    unfold OracleSpec.vote_wf in Hwf. rewrite Hc in Hwf. exact Hwf.
  Qed.

  Theorem counted_signed : stmt_counted_signed Key Sig sig_ok.
  Proof.
    intros st h ec H. apply threshold_exact in H as [Hwf _].
    split; [exact (proj1 Hwf)|exact (votes_wf_signed _ _ _ Hwf)].
  Qed.

  Lemma match_votes_cons l ls v vs :
    match_votes (l :: ls) (v :: vs) = Ok tt <->
    vote_matches l v /\ match_votes ls vs = Ok tt.
  Proof.
    unfold OracleSpec.vote_matches. cbn [OracleModel.match_votes].
    rewrite <- !N.eqb_eq, <- flag_eqb_eq.
    destruct (l_addr l =? v_addr v); cbn [negb]; [|intuition discriminate].
    destruct (l_power l =? v_power v); cbn [negb]; [|intuition discriminate].
    destruct (pruned v); [tauto|].
    destruct (flag_eqb (v_flag v) (l_flag l)); cbn [negb]; [tauto|intuition discriminate].
  Qed.

  Lemma match_votes_ok : forall ls vs, length ls = length vs ->
    (match_votes ls vs = Ok tt <-> Forall2 vote_matches ls vs).
  Proof.
    induction ls as [|l ls IH]; intros [|v vs] Hlen; try discriminate.
    - split; [constructor|reflexivity].
    - injection Hlen as Hlen. rewrite match_votes_cons, (IH vs Hlen). split.
      + intros [Hm Hr]. constructor; assumption.
      + intros H. inversion H; subst. split; assumption.
  Qed.

  Theorem matches_last_commit_iff : stmt_matches_last_commit Sig.
  Proof.
    intros lc ec. unfold OracleModel.validate_against_last_commit, OracleSpec.matches_last_commit.
    destruct (N.eqb_spec (lc_round lc) (ec_round ec)) as [Er|Er]; cbn [negb].
    2:{ split; [discriminate|]. intros [E _]. contradiction. }
    destruct (lenN (lc_votes lc) =? lenN (ec_votes ec)) eqn:El; cbn [negb].
    - apply lenN_eq in El. rewrite (match_votes_ok _ _ El). split.
      + intros H. split; assumption.
      + intros [_ H]. exact H.
    - split; [discriminate|]. intros [_ H]. apply Forall2_len in H.
      apply lenN_eq in H. congruence.
  Qed.

  Theorem validate_proposal_exact : stmt_validate_proposal_exact Key Sig sig_ok.
  Proof.
    intros st h lc ec mp Hh Hne. unfold OracleModel.validate_proposal.
    destruct (N.eqb_spec h 1) as [E|_]; [contradiction|].
    destruct (ec_votes ec) as [|v0 r0] eqn:Ev; [contradiction|]. rewrite <- Ev.
    rewrite rbind_ok. split.
    - intros ([] & Hlc & H). apply rbind_ok in H as ([] & Hvve & H).
      apply rbind_ok in H as (ids & Hids & H).
      apply matches_last_commit_iff in Hlc. apply threshold_exact in Hvve.
      split; [exact Hlc|]. split; [exact Hvve|]. exists ids. split; [exact Hids|].
      destruct (mapping_eqb _ mp); [reflexivity|discriminate].
    - intros (Hlc & Hvve & ids & Hids & Hmap).
      exists tt. split; [apply matches_last_commit_iff; exact Hlc|].
      apply rbind_ok. exists tt. split; [apply threshold_exact; exact Hvve|].
      apply rbind_ok. exists ids. split; [exact Hids|]. rewrite Hmap. reflexivity.
  Qed.

  Theorem accept_only_if : stmt_accept_only_if Key Sig sig_ok.
  Proof.
    intros st h lc ec mp Hh Hne H.
    apply (validate_proposal_exact st h lc ec mp Hh Hne) in H
      as (Hlc & (Hwf & _ & Hthr) & _).
    split; [exact Hlc|]. split; [exact (proj1 Hwf)|]. split; [|exact Hthr].
    exact (votes_wf_signed _ _ _ Hwf).
  Qed.

  Theorem empty_ok : stmt_empty_ok Key Sig sig_ok.
  Proof.
    intros st h lc ec mp Hv Hr. unfold OracleModel.validate_proposal.
    destruct (h =? 1); [reflexivity|]. rewrite Hv.
    destruct (N.eqb_spec (lc_round lc) (ec_round ec)); [reflexivity|contradiction].
  Qed.

  Theorem empty_round : stmt_empty_round Key Sig sig_ok.
  Proof.
    intros st h lc ec mp Hv Hh Hr. unfold OracleModel.validate_proposal.
    destruct (N.eqb_spec h 1); [contradiction|]. rewrite Hv.
    destruct (N.eqb_spec (lc_round lc) (ec_round ec)); [contradiction|reflexivity].
  Qed.

  Theorem enabled_above_one : stmt_enabled_above_one.
  Proof.
    intros eh h H. unfold vote_extensions_enabled in H. apply andb_prop in H as [H1 H2].
    apply negb_true_iff in H1. apply N.eqb_neq in H1. apply N.ltb_lt in H2. lia.
  Qed.

  Lemma verify_ve_empty m : verify_ve (XPrices []) m = Ok [].
  Proof.
    unfold verify_ve. cbn [ext_decode]. unfold lenN. cbn [length N.of_nat].
    destruct (N.leb_spec 0 m); [|lia]. reflexivity.
  Qed.

  Lemma verify_ve_prune_vote m v : exists ids, verify_ve (v_ext (prune_vote m v)) m = Ok ids.
  Proof.
    unfold OracleModel.prune_vote. destruct (verify_ve (v_ext v) m) as [ids|e|] eqn:Ev.
    - exists ids. exact Ev.
    - exists []. apply verify_ve_empty.
    - exists []. apply verify_ve_empty.
  Qed.

  Lemma all_ve_ids_pruned m : forall vs, exists ids, all_ve_ids (map (prune_vote m) vs) m = Ok ids.
  Proof.
    induction vs as [|v r [rest IH]]; [exists []; reflexivity|].
    destruct (verify_ve_prune_vote m v) as [ids Hv].
    cbn [map OracleModel.all_ve_ids]. rewrite Hv, IH. eexists; reflexivity.
  Qed.

  Lemma pruned_prune v : pruned (prune v) = true.
  Proof. reflexivity. Qed.

  Lemma project_matches m : forall vs,
    Forall2 vote_matches
      (map (fun v => {| l_addr := v_addr v; l_power := v_power v; l_flag := v_flag v |}) vs)
      (map (prune_vote m) vs).
  Proof.
    induction vs as [|v r IH]; cbn [map]; constructor; [|exact IH].
    unfold OracleModel.prune_vote.
    destruct (verify_ve (v_ext v) m); repeat split; [right|left|left]; reflexivity.
  Qed.

  Lemma expected_mapping_of_In st : forall ids k p,
    In (k, p) (expected_mapping_of Key st ids) -> lookupN k (st_pairs Key st) = Some p.
  Proof.
    induction ids as [|i r IH]; intros k p H; cbn [expected_mapping_of] in H; [destruct H|].
    destruct (lookupN i (st_pairs Key st)) as [q|] eqn:E.
    - destruct H as [H|H]; [inversion H; subst; exact E|apply IH; exact H].
    - apply IH; exact H.
  Qed.

  Lemma mapping_eqb_expected_refl st ids :
    mapping_eqb (expected_mapping Key st ids) (expected_mapping Key st ids) = true.
  Proof.
    unfold mapping_eqb, expected_mapping. set (E := expected_mapping_of Key st _).
    rewrite N.eqb_refl. cbn [andb]. apply forallb_forall. intros [k p] Hin. cbn [fst snd].
    destruct (In_lookupN k E p Hin) as [q Hq]. rewrite Hq.
    apply lookupN_In in Hq.
    subst E. apply expected_mapping_of_In in Hin. apply expected_mapping_of_In in Hq.
    rewrite Hin in Hq. inversion Hq; subst.
    unfold pinfo_eqb. rewrite !N.eqb_refl. reflexivity.
  Qed.

  Theorem honest_proposal_accepted : stmt_honest_proposal_accepted Key Sig sig_ok.
  Proof.
    intros st h ec p Hp. unfold OracleModel.prepare_or_empty in Hp.
    destruct (prepare_proposal st h ec) as [x|e|] eqn:Eprep; [| |discriminate];
      injection Hp as <-; [|apply empty_ok; reflexivity].
    unfold OracleModel.prepare_proposal in Eprep.
    destruct (N.eqb_spec h 1) as [->|Hh]; [reflexivity|].
    set (m := st_maxpairs Key st) in *.
    set (ec' := {| OracleModel.ec_round := ec_round ec;
                   OracleModel.ec_votes := map (prune_vote m) (ec_votes ec) |}) in *.
    destruct (validate_vote_extensions st h ec') as [[]|e|] eqn:Evve; cbn [rbind] in Eprep;
      try discriminate.
    destruct (all_ve_ids (ec_votes ec') m) as [ids|e|] eqn:Eids; try discriminate.
    injection Eprep as <-. cbn [fst snd].
    destruct (ec_votes ec') as [|v0 r0] eqn:Ev; [apply empty_ok; [exact Ev|reflexivity]|].
    apply validate_proposal_exact; [exact Hh|rewrite Ev; discriminate|].
    split; [split; [reflexivity|apply project_matches]|].
    split; [apply threshold_exact; exact Evve|].
    exists ids. split; [rewrite Ev; exact Eids|apply mapping_eqb_expected_refl].
  Qed.

End Proofs.
