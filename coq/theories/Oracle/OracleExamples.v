(** C15 — non-vacuity: concrete runs of the model (ideal signature scheme) exercising the
    hypotheses and conclusions of the theorems of Properties/C15.v. *)
From Astria Require Import Oracle.OracleModel Oracle.OracleSpec.

Local Notation vote := (vote isig).
Local Notation ecommit := (ecommit isig).
Local Notation state := (state N).
Local Notation vve := (validate_vote_extensions N isig ideal_sig_ok).
Local Notation vprop := (validate_proposal N isig ideal_sig_ok).
Local Notation prep := (prepare_or_empty N isig ideal_sig_ok).

Definition chain : N := 15.
Definition st3 : state :=
  {| st_chain := chain; st_vals := [(1, 1); (2, 2); (3, 3)]; st_maxpairs := 2;
     st_pairs := [(0, (100, 6)); (1, (101, 8))] |}.

Definition ext_a : ext := XPrices [(0, PInt 20); (1, PInt (-3))].
Definition ext_b : ext := XPrices [(0, PInt 10); (1, PInt (-3))].

(** height 5, round 2: validator k signs extension e *)
Definition commit_vote (k p : N) (e : ext) : vote :=
  {| v_addr := k; v_power := p; v_flag := FCommit; v_ext := e;
     v_sig := Some (ISigned k e 4 2 chain) |}.
Definition nil_vote (k p : N) : vote :=
  {| v_addr := k; v_power := p; v_flag := FNil; v_ext := XPrices []; v_sig := None |}.

Definition ec_of (vs : list vote) : ecommit := {| ec_round := 2; ec_votes := vs |}.
Definition lc_of (vs : list vote) : lcommit := project isig (ec_of vs).
Definition mp01 : list (N * pinfo) := [(1, (101, 8)); (0, (100, 6))].

(** 7 of 10 listed power: accepted (21 > 20) *)
Definition good : list vote := [commit_vote 1 5 ext_a; nil_vote 2 3; commit_vote 3 2 ext_b].
Example ex_accept : vprop st3 5 (lc_of good) (ec_of good) mp01 = Ok tt.
Proof. vm_compute. reflexivity. Qed.
Example ex_accept_vve : vve st3 5 (ec_of good) = Ok tt.
Proof. vm_compute. reflexivity. Qed.

(** exactly 2/3 (6 of 9) is refused, one more unit of power is accepted *)
Example ex_boundary_refused :
  vve st3 5 (ec_of [commit_vote 1 4 ext_a; nil_vote 2 3; commit_vote 3 2 ext_b])
  = Err EInsufficient.
Proof. vm_compute. reflexivity. Qed.
Example ex_boundary_accepted :
  vve st3 5 (ec_of [commit_vote 1 5 ext_a; nil_vote 2 3; commit_vote 3 2 ext_b]) = Ok tt.
Proof. vm_compute. reflexivity. Qed.

(** forged: validator 1's vote carries a signature made by key 3 *)
Definition forged : vote :=
  {| v_addr := 1; v_power := 5; v_flag := FCommit; v_ext := ext_a;
     v_sig := Some (ISigned 3 ext_a 4 2 chain) |}.
Example ex_forged : vve st3 5 (ec_of [forged; nil_vote 2 3; commit_vote 3 2 ext_b]) = Err EBadSig.
Proof. vm_compute. reflexivity. Qed.

(** a signature over another round / height does not count *)
Example ex_wrong_round :
  vve st3 5 {| ec_round := 3; ec_votes := good |} = Err EBadSig.
Proof. vm_compute. reflexivity. Qed.
Example ex_wrong_height : vve st3 6 (ec_of good) = Err EBadSig.
Proof. vm_compute. reflexivity. Qed.

(** duplicated voter, unknown validator, extension on a nil vote *)
Example ex_dup : vve st3 5 (ec_of [commit_vote 1 5 ext_a; commit_vote 1 5 ext_a]) = Err EDup.
Proof. vm_compute. reflexivity. Qed.
Example ex_unknown : vve st3 5 (ec_of [commit_vote 9 5 ext_a]) = Err ENoKey.
Proof. vm_compute. reflexivity. Qed.
Example ex_nil_with_ext :
  vve st3 5 (ec_of [commit_vote 1 5 ext_a;
                    {| v_addr := 2; v_power := 1; v_flag := FNil; v_ext := ext_a; v_sig := None |}])
  = Err ENcExt.
Proof. vm_compute. reflexivity. Qed.

(** the two overflow errors that can occur are reachable with tendermint powers (<= i64::MAX) *)
Definition pmax : N := 9223372036854775807.
Example ex_mul_overflow :
  vve st3 5 (ec_of [commit_vote 1 pmax ext_a; commit_vote 2 pmax ext_a]) = Err EMulOverflow.
Proof. vm_compute. reflexivity. Qed.
Example ex_total_overflow :
  vve st3 5 (ec_of [commit_vote 1 pmax ext_a; commit_vote 2 pmax ext_a; commit_vote 3 pmax ext_a])
  = Err ETotalOverflow.
Proof. vm_compute. reflexivity. Qed.

(** the extended commit must match the last commit *)
Example ex_lc_power :
  vprop st3 5 (lc_of [commit_vote 1 6 ext_a; nil_vote 2 3; commit_vote 3 2 ext_b]) (ec_of good) mp01
  = Err EPower.
Proof. vm_compute. reflexivity. Qed.
Example ex_lc_round :
  vprop st3 5 {| lc_round := 1; lc_votes := lc_votes (lc_of good) |} (ec_of good) mp01 = Err ERound.
Proof. vm_compute. reflexivity. Qed.
Example ex_lc_flag :
  vprop st3 5 (lc_of [commit_vote 1 5 ext_a; commit_vote 2 3 ext_a; commit_vote 3 2 ext_b])
        (ec_of good) mp01 = Err EFlag.
Proof. vm_compute. reflexivity. Qed.

(** empty extended commit: acceptable; only the round is looked at *)
Example ex_empty : vprop st3 5 (lc_of good) (ec_of []) [] = Ok tt.
Proof. vm_compute. reflexivity. Qed.
Example ex_empty_round : vprop st3 5 (lc_of good) {| ec_round := 7; ec_votes := [] |} [] = Err ERound.
Proof. vm_compute. reflexivity. Qed.

(** proposer side: an undecodable (but signed) extension is pruned, the rest still has > 2/3 *)
Definition local : list vote := [commit_vote 1 5 ext_a; commit_vote 2 1 XGarbage; commit_vote 3 4 ext_b].
Example ex_prepare :
  match prep st3 5 (ec_of local) with
  | Some (ec', mp) =>
      map (v_flag isig) (ec_votes isig ec') = [FCommit; FAbsent; FCommit] /\
      vprop st3 5 (lc_of local) ec' mp = Ok tt
  | None => False
  end.
Proof. vm_compute. split; reflexivity. Qed.
(** ... and when too little is left, the empty commit is proposed and accepted *)
Definition local2 : list vote := [commit_vote 1 5 XGarbage; commit_vote 3 4 ext_b].
Example ex_prepare_fallback :
  match prep st3 5 (ec_of local2) with
  | Some (ec', mp) => ec_votes isig ec' = [] /\ vprop st3 5 (lc_of local2) ec' mp = Ok tt
  | None => False
  end.
Proof. vm_compute. split; reflexivity. Qed.

Open Scope Z_scope.
Example ex_median_two : median [20; 10] = Ok (Some 15).
Proof. vm_compute. reflexivity. Qed.
Example ex_median_round_down : median [10; 15; 20; 25] = Ok (Some 17).
Proof. vm_compute. reflexivity. Qed.
Example ex_median_max : median [I128_MAX; I128_MAX; I128_MAX - 1; I128_MAX - 1] = Ok (Some (I128_MAX - 1)).
Proof. vm_compute. reflexivity. Qed.
Example ex_median_min : median [I128_MIN; I128_MIN] = Ok (Some I128_MIN).
Proof. vm_compute. reflexivity. Qed.
Example ex_median_tie : median [-3; -3] = Ok (Some (-2)).
Proof. vm_compute. reflexivity. Qed.
Example ex_tie_class : neg_odd_tie [-3; -3].
Proof. exists 0%nat, (-3). vm_compute. repeat split; congruence. Qed.
Example ex_not_tie_class : ~ neg_odd_tie [10; 20].
Proof. intros (lower & x & Hlen & E1 & E2 & Hneg & _). cbn in Hlen.
  assert (lower = 0%nat) by lia. subst. cbn in E1. inversion E1; subst. lia. Qed.

(** aggregation: pair 100 gets the median of 20 and 10; pair 101 (reports -3, -3) gets -2;
    id 7 is not in the mapping and publishes nothing *)
Example ex_calculate :
  calculate_prices [ext_a; XPrices []; XPrices [(0%N, PInt 10); (1%N, PInt (-3)); (7%N, PInt 5)]] mp01
  = Ok [((100, 6)%N, 15); ((101, 8)%N, -2)].
Proof. vm_compute. reflexivity. Qed.
(** a 15-byte price passes [verify_ve] but fails the aggregation *)
Example ex_short_price :
  verify_ve (XPrices [(0%N, PLen 15)]) 2 = Ok [0%N] /\
  calculate_prices [XPrices [(0%N, PLen 15)]] mp01 = Err EPrice.
Proof. vm_compute. split; reflexivity. Qed.
