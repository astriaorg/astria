(** C15 — proofs about the price aggregation ([median], [aggregate], [calculate_prices]). *)
From Astria Require Import Oracle.OracleSpec.
From Coq Require Import Sorting.Sorted Sorting.Permutation.

Open Scope Z_scope.

Lemma insertZ_perm x l : Permutation (x :: l) (insertZ x l).
Proof.
  induction l as [|y r IH]; cbn [insertZ]; [reflexivity|].
  destruct (x <=? y); [reflexivity|].
  eapply perm_trans; [apply perm_swap|]. constructor. exact IH.
Qed.

Lemma sortZ_perm l : Permutation l (sortZ l).
Proof.
  induction l as [|x r IH]; cbn [sortZ]; [constructor|].
  eapply perm_trans; [constructor; exact IH | apply insertZ_perm].
Qed.

Lemma sortZ_length l : length (sortZ l) = length l.
Proof. symmetry. apply Permutation_length, sortZ_perm. Qed.

Lemma sortZ_In l x : In x (sortZ l) <-> In x l.
Proof. rewrite <- (sortZ_perm l). reflexivity. Qed.

Lemma insertZ_SS x l : StronglySorted Z.le l -> StronglySorted Z.le (insertZ x l).
Proof.
  induction l as [|y r IH]; intros H; cbn [insertZ].
  - constructor; constructor.
  - apply StronglySorted_inv in H as [Hs Hf].
    destruct (Z.leb_spec x y) as [Hxy|Hxy].
    + constructor; [constructor; assumption|].
      constructor; [exact Hxy|]. eapply Forall_impl; [|exact Hf]. cbv beta. intros a Ha. lia.
    + constructor; [apply IH; exact Hs|].
      rewrite <- (insertZ_perm x r). constructor; [lia|exact Hf].
Qed.

Lemma sortZ_SS l : StronglySorted Z.le (sortZ l).
Proof.
  induction l as [|x r IH]; cbn [sortZ]; [constructor|]. apply insertZ_SS; exact IH.
Qed.

Lemma SS_adjacent s : StronglySorted Z.le s ->
  forall i a b, nth_error s i = Some a -> nth_error s (S i) = Some b -> a <= b.
Proof.
  induction 1 as [|x r Hs IH Hf]; intros [|i] a b Hi Hj; cbn [nth_error] in Hi;
    try discriminate.
  - injection Hi as <-. rewrite Forall_forall in Hf. exact (Hf b (nth_error_In r 0 Hj)).
  - exact (IH i a b Hi Hj).
Qed.

(** the result of the even-length branch of [median] on the two middle values ([median_even]) *)
Definition mid_value (hi lo : Z) : Z :=
  if is_odd_pos_rem hi && is_odd_pos_rem lo
  then Z.quot hi 2 + Z.quot lo 2 + 1 else Z.quot hi 2 + Z.quot lo 2.

(** [OracleSpec.neg_odd_tie l]: [l] has even length and its two middle values are in [tie] *)
Definition tie (lo hi : Z) : Prop := lo = hi /\ hi < 0 /\ Z.rem hi 2 <> 0.

(** on a tie of negative odd numbers both halves round towards zero, that is, up *)
Lemma mid_value_spec lo hi : lo <= hi ->
  lo <= mid_value hi lo <= hi + 1 /\
  (~ tie lo hi -> mid_value hi lo <= hi) /\ (tie lo hi -> mid_value hi lo = hi + 1).
Proof.
  unfold tie, mid_value, is_odd_pos_rem. intros H.
  destruct (Z.eqb_spec (Z.rem hi 2) 1); destruct (Z.eqb_spec (Z.rem lo 2) 1); cbn [andb];
    Z.to_euclidean_division_equations; lia.
Qed.

Lemma i128_checked_add_in a b : in_i128 (a + b) -> i128_checked_add a b = Some (a + b).
Proof.
  unfold in_i128, i128_checked_add. intros [Hl Hu]. cbv zeta.
  rewrite (proj2 (Z.leb_le _ _) Hl), (proj2 (Z.leb_le _ _) Hu). reflexivity.
Qed.

Lemma half_sum_in lo hi : in_i128 lo -> in_i128 hi ->
  in_i128 (Z.quot hi 2 + Z.quot lo 2) /\
  (is_odd_pos_rem hi && is_odd_pos_rem lo = true -> in_i128 (Z.quot hi 2 + Z.quot lo 2 + 1)).
Proof.
  (* of the two bounds only the signs matter *)
  assert (Hsign : I128_MIN <= 0 <= I128_MAX) by (unfold I128_MIN, I128_MAX; lia).
  unfold in_i128, is_odd_pos_rem. generalize dependent I128_MAX. generalize dependent I128_MIN.
  intros mn mx Hsign Hlo Hhi. split.
  - Z.to_euclidean_division_equations; lia.
  - intros Hodd. apply andb_prop in Hodd as [H1 H2]. apply Z.eqb_eq in H1, H2.
    Z.to_euclidean_division_equations; lia.
Qed.

Lemma Forall_sortZ (P : Z -> Prop) l : Forall P l -> Forall P (sortZ l).
Proof. rewrite <- (sortZ_perm l). exact (fun H => H). Qed.

Lemma median_nil : median [] = Ok None.
Proof. reflexivity. Qed.

Lemma nth_sortZ l i : (i < length l)%nat ->
  exists x, nth_error (sortZ l) i = Some x /\ In x l.
Proof.
  intros Hi. destruct (nth_error (sortZ l) i) as [x|] eqn:E.
  - exists x. split; [reflexivity|]. apply sortZ_In. eapply nth_error_In; exact E.
  - apply nth_error_None in E. rewrite sortZ_length in E. lia.
Qed.

Lemma median_odd l : (length l mod 2 = 1)%nat -> exists x, median l = Ok (Some x) /\ In x l.
Proof.
  intros Hodd. unfold median. rewrite sortZ_length, Hodd. cbn [Nat.eqb].
  destruct (nth_sortZ l (length l / 2)) as (x & -> & Hin).
  { pose proof (Nat.div_mod_eq (length l) 2). lia. }
  exists x. split; [reflexivity|exact Hin].
Qed.

Lemma median_even l lower : length l = (2 * S lower)%nat -> Forall in_i128 l ->
  exists lo hi,
    nth_error (sortZ l) lower = Some lo /\ nth_error (sortZ l) (S lower) = Some hi /\
    lo <= hi /\ In lo l /\ In hi l /\ median l = Ok (Some (mid_value hi lo)).
Proof.
  intros Hlen Hb. unfold median. rewrite sortZ_length, Hlen.
  replace (2 * S lower)%nat with (S lower * 2)%nat by lia.
  rewrite Nat.mod_mul by lia. rewrite Nat.div_mul by lia. cbn [Nat.eqb].
  destruct (nth_sortZ l (S lower)) as (hi & Ehi & Hinhi); [lia|].
  destruct (nth_sortZ l lower) as (lo & Elo & Hinlo); [lia|].
  rewrite Ehi, Elo.
  pose proof (SS_adjacent _ (sortZ_SS l) lower lo hi Elo Ehi) as Hle.
  rewrite Forall_forall in Hb.
  destruct (half_sum_in lo hi (Hb _ Hinlo) (Hb _ Hinhi)) as [Hsum Hplus].
  exists lo, hi. repeat split; try assumption.
  unfold i128_half, mid_value. rewrite (i128_checked_add_in _ _ Hsum).
  destruct (is_odd_pos_rem hi && is_odd_pos_rem lo);
    [rewrite (i128_checked_add_in _ _ (Hplus eq_refl))|]; reflexivity.
Qed.

Lemma parity_cases (n : nat) :
  (n mod 2 = 1)%nat \/ n = 0%nat \/ exists lower, n = (2 * S lower)%nat.
Proof.
  pose proof (Nat.div_mod_eq n 2) as H. pose proof (Nat.mod_upper_bound n 2) as Hb.
  destruct (Nat.eq_dec (n mod 2) 1) as [E|E]; [left; exact E|right].
  destruct (Nat.eq_dec n 0) as [E0|E0]; [left; exact E0|right].
  exists (Nat.pred (n / 2)). lia.
Qed.

Lemma median_spec l : Forall in_i128 l -> l <> [] ->
  exists m lo hi, median l = Ok (Some m) /\ In lo l /\ In hi l /\
    lo <= m <= hi + 1 /\ (~ neg_odd_tie l -> m <= hi).
Proof.
  intros Hb Hne. destruct (parity_cases (length l)) as [Hodd|[H0|[lower Hev]]].
  - destruct (median_odd l Hodd) as (x & -> & Hin). exists x, x, x.
    repeat split; try assumption; lia.
  - destruct l; [contradiction|discriminate].
  - destruct (median_even l lower Hev Hb) as (lo & hi & Elo & Ehi & Hle & Hinlo & Hinhi & ->).
    destruct (mid_value_spec lo hi Hle) as (Hr & Hup & _).
    exists (mid_value hi lo), lo, hi. split; [reflexivity|]. split; [exact Hinlo|].
    split; [exact Hinhi|]. split; [exact Hr|]. intros Hnt. apply Hup.
    intros (-> & Hneg & Hrem). apply Hnt. exists lower, hi. repeat split; assumption.
Qed.

Theorem median_total : stmt_median_total.
Proof.
  intros l Hb. destruct l as [|x r].
  - exists None. split; [reflexivity|]. split; reflexivity.
  - destruct (median_spec (x :: r) Hb ltac:(discriminate)) as (m & _ & _ & -> & _).
    exists (Some m). split; [reflexivity|]. split; discriminate.
Qed.

Theorem median_in_range : stmt_median_in_range.
Proof.
  intros l Hb Hne Hnt.
  destruct (median_spec l Hb Hne) as (m & lo & hi & Hm & Hlo & Hhi & [Hle _] & Hup).
  exists m, lo, hi. repeat split; try assumption. exact (Hup Hnt).
Qed.

Theorem median_in_range_nonneg : stmt_median_in_range_nonneg.
Proof.
  intros l Hb Hne. apply median_in_range; [|exact Hne|].
  - eapply Forall_impl; [|exact Hb]. cbv beta. unfold in_i128, I128_MIN. intros a Ha. lia.
  - intros (lower & x & Hlen & Elo & Ehi & Hneg & _).
    assert (Hin : In x l) by (apply sortZ_In; eapply nth_error_In; exact Elo).
    rewrite Forall_forall in Hb. specialize (Hb _ Hin). lia.
Qed.

Theorem median_tie_off_by_one : stmt_median_tie_off_by_one.
Proof.
  intros l Hb (lower & x & Hlen & Elo & Ehi & Hneg & Hodd).
  destruct (median_even l lower Hlen Hb) as (lo & hi & Elo' & Ehi' & _ & Hinlo & _ & ->).
  rewrite Elo in Elo'. rewrite Ehi in Ehi'. inversion Elo'; inversion Ehi'; subst lo hi.
  exists x. split; [exact Hinlo|]. split; [exact Hneg|].
  destruct (mid_value_spec x x (Z.le_refl x)) as (_ & _ & Htie).
  rewrite Htie by (repeat split; assumption). reflexivity.
Qed.

Theorem median_within_one : stmt_median_within_one.
Proof.
  intros l Hb Hne.
  destruct (median_spec l Hb Hne) as (m & lo & hi & Hm & Hlo & Hhi & Hr & _).
  exists m, lo, hi. repeat split; try assumption; apply Hr.
Qed.

Theorem median_in_range_refuted : stmt_median_in_range_refuted.
Proof.
  exists [-3; -3]. split.
  - repeat constructor; unfold in_i128, I128_MIN, I128_MAX; lia.
  - split; [discriminate|]. exists (-2). split; [vm_compute; reflexivity|].
    intros b [<-|[<-|[]]]; lia.
Qed.

Close Scope Z_scope.

Lemma pinfo_eqb_eq a b : pinfo_eqb a b = true <-> a = b.
Proof.
  destruct a as [a1 a2], b as [b1 b2]. unfold pinfo_eqb. cbn [fst snd].
  rewrite andb_true_iff, !N.eqb_eq. split.
  - intros [-> ->]; reflexivity.
  - intros E; inversion E; split; reflexivity.
Qed.

(** [aggregate_sound] takes [reported mp votes] for [R] *)
Definition groups_ok (R : pinfo -> Z -> Prop) (g : list (pinfo * list Z)) : Prop :=
  Forall (fun pz => snd pz <> [] /\ Forall (R (fst pz)) (snd pz)) g.

Lemma group_insert_ok R p z g : groups_ok R g -> R p z -> groups_ok R (group_insert p z g).
Proof.
  intros Hok HR. induction Hok as [|[q zs] r [Hne Hzs] Hr IH]; cbn [group_insert fst snd] in *.
  - constructor; [|constructor]. split; [discriminate|]. constructor; [exact HR|constructor].
  - destruct (pinfo_eqb q p) eqn:Eq.
    + apply pinfo_eqb_eq in Eq as ->. constructor; [|exact Hr]. cbn [fst snd].
      split; [destruct zs; discriminate|]. apply Forall_app. split; [exact Hzs|].
      constructor; [exact HR|constructor].
    + constructor; [split; assumption|exact IH].
Qed.

Lemma group_vote_ok R mp prices : forall g,
  groups_ok R g ->
  Forall (fun iz => forall p, lookupN (fst iz) mp = Some p -> R p (snd iz)) prices ->
  groups_ok R (group_vote mp prices g).
Proof.
  intros g Hok HR. revert g Hok.
  induction HR as [|[i z] r Hiz _ IH]; intros g Hok; cbn [group_vote]; [exact Hok|].
  destruct (lookupN i mp) as [p|] eqn:E; apply IH; [|exact Hok].
  apply group_insert_ok; [exact Hok|exact (Hiz p E)].
Qed.

Lemma group_votes_ok R mp votes : forall g,
  groups_ok R g ->
  Forall (Forall (fun iz => forall p, lookupN (fst iz) mp = Some p -> R p (snd iz))) votes ->
  groups_ok R (group_votes mp votes g).
Proof.
  intros g Hok HR. revert g Hok.
  induction HR as [|v r Hv _ IH]; intros g Hok; cbn [group_votes]; [exact Hok|].
  apply IH, group_vote_ok; assumption.
Qed.

Lemma medians_sound : forall g out,
  medians g = Ok out ->
  forall p m, In (p, m) out -> exists zs, In (p, zs) g /\ median zs = Ok (Some m).
Proof.
  induction g as [|[q zs] r IH]; intros out H p m Hin; cbn [medians] in H.
  - inversion H; subst. destruct Hin.
  - destruct (median zs) as [o|e|] eqn:Em; cbn [rbind] in H; try discriminate.
    destruct (medians r) as [rest|e|] eqn:Er; cbn [rbind] in H; try discriminate.
    inversion H; subst out; clear H.
    assert (Hrest : In (p, m) rest ->
                    exists zs', In (p, zs') ((q, zs) :: r) /\ median zs' = Ok (Some m)).
    { intros Hr. destruct (IH rest eq_refl p m Hr) as (zs' & Hin' & Hm).
      exists zs'. split; [right; exact Hin'|exact Hm]. }
    destruct o as [x|]; [|exact (Hrest Hin)].
    destruct Hin as [E|Hin]; [|exact (Hrest Hin)].
    inversion E; subst. exists zs. split; [left; reflexivity|exact Em].
Qed.

Theorem aggregate_sound : stmt_aggregate_sound.
Proof.
  intros mp votes out p m H Hin. unfold aggregate in H.
  destruct (medians_sound _ _ H p m Hin) as (zs & Hg & Hm).
  assert (Hok : groups_ok (reported mp votes) (group_votes mp votes [])).
  { apply group_votes_ok; [constructor|].
    apply Forall_forall. intros v Hv. apply Forall_forall. intros [i z] Hiz p' Hl.
    exists v, i. repeat split; assumption. }
  unfold groups_ok in Hok. rewrite Forall_forall in Hok. destruct (Hok (p, zs) Hg) as [Hne HR].
  exists zs. split; [exact Hne|]. split; [exact Hm|]. apply Forall_forall; exact HR.
Qed.

Lemma apply_writes_id known : forall ps out, apply_writes known ps = Ok out -> out = ps.
Proof.
  induction ps as [|[p z] r IH]; intros out H; cbn [apply_writes] in H.
  - inversion H; reflexivity.
  - destruct (memN (fst p) known); [|discriminate].
    destruct (apply_writes known r) as [rest|e|] eqn:Er; cbn [rbind] in H; try discriminate.
    inversion H; subst. rewrite (IH rest eq_refl). reflexivity.
Qed.

Theorem apply_publishes_aggregate : stmt_apply_publishes_aggregate.
Proof.
  intros known exts mp out H. unfold apply_prices in H.
  destruct (calculate_prices exts mp) as [ps|e|] eqn:Ec; cbn [rbind] in H; try discriminate.
  rewrite (apply_writes_id _ _ _ H). reflexivity.
Qed.

Theorem published_in_range : stmt_published_in_range.
Proof.
  intros exts mp votes out p m Hdec Hb Hcalc Hin.
  unfold calculate_prices in Hcalc. rewrite Hdec in Hcalc. cbn [rbind] in Hcalc.
  destruct (aggregate_sound mp votes out p m Hcalc Hin) as (zs & Hne & Hm & HR).
  exists zs. split; [exact Hne|]. split; [exact Hm|]. split; [exact HR|].
  intros Hnt.
  assert (Hbz : Forall in_i128 zs).
  { rewrite Forall_forall. intros z Hz. destruct (HR z Hz) as (v & i & Hv & Hiz & _).
    rewrite Forall_forall in Hb. specialize (Hb v Hv). rewrite Forall_forall in Hb.
    exact (Hb (i, z) Hiz). }
  destruct (median_in_range zs Hbz Hne Hnt) as (m' & a & b & Hm' & Ha & Hbb & Hr).
  rewrite Hm in Hm'. inversion Hm'; subst m'.
  exists a, b. split; [apply HR; exact Ha|]. split; [apply HR; exact Hbb|exact Hr].
Qed.
