(** C17 -- the validation layer model never panics, accepted values pass their checks and
    re-encode to something that decodes to the same value.  [sp x P] says that [x] does not panic
    and that a value it returns satisfies [P]; one walk along the [let?] chain of a decoder with
    the rules for [sp] gives both that it is total and what holds of an accepted value.  A second
    walk, with [ok_bind], over the re-encoded value uses those facts to show that every check
    passes again.  The toy instance at the end shows that the statements are not vacuous and is
    the witness of finding F11 against the block decoder as it was before the repair. *)
From Astria Require Import Decode.DecodeSpec Merkle.MerkleTotal.

Definition sp {A} (x : res A) (P : A -> Prop) : Prop :=
  match x with ROk a => P a | RErr _ => True | RPanic => False end.

Lemma sp_np {A} {x : res A} {P} : sp x P -> x <> RPanic.
Proof. intros H ->. exact H. Qed.

Lemma sp_ok {A} {x : res A} {P} : sp x P -> forall v, x = ROk v -> P v.
Proof. intros H v ->. exact H. Qed.

Lemma sp_bind {A C} {x : res A} {f : A -> res C} {P Q} :
  sp x P -> (forall a, P a -> sp (f a) Q) -> sp (rbind x f) Q.
Proof. destruct x; cbn; auto. Qed.

Lemma sp_wrap {A t} {x : res A} {P} : sp x P -> sp (wrap t x) P.
Proof. destruct x; cbn; auto. Qed.

Lemma sp_require {C b e} {k : unit -> res C} {Q} :
  (b = true -> sp (k tt) Q) -> sp (rbind (require b e) k) Q.
Proof. destruct b; cbn; auto. Qed.

Lemma sp_rmap {A C} {f : A -> res C} {P} :
  (forall x, sp (f x) P) -> forall l, sp (rmap f l) (Forall P).
Proof.
  intros Hf. induction l as [|x r IH]; cbn [rmap]; [constructor|].
  apply (sp_bind (Hf x)); intros y Hy. apply (sp_bind IH); intros ys Hys.
  constructor; assumption.
Qed.

Lemma sp_rmap_idx {A C} {f : A -> res C} {P} :
  (forall x, sp (f x) P) -> forall l i, sp (rmap_idx f i l) (Forall P).
Proof.
  intros Hf. induction l as [|x r IH]; intros i; cbn [rmap_idx]; [constructor|].
  apply (sp_bind (sp_wrap (Hf x))); intros y Hy. apply (sp_bind (IH _)); intros ys Hys.
  constructor; assumption.
Qed.

Lemma wrap_of_ok {A} t (x : res A) v : x = ROk v -> wrap t x = ROk v.
Proof. intros ->. reflexivity. Qed.

Lemma require_true e : require true e = ROk tt.
Proof. reflexivity. Qed.

Lemma ok_bind {A C} {x : res A} {f : A -> res C} {a v} :
  x = ROk a -> f a = ROk v -> rbind x f = ROk v.
Proof. intros ->. exact (fun H => H). Qed.

Lemma ok_require {C b e} {k : unit -> res C} {v} :
  b = true -> k tt = ROk v -> rbind (require b e) k = ROk v.
Proof. intros ->. exact (fun H => H). Qed.

Lemma rmap_retract {A C D} (f : A -> res C) (g : D -> A) (h : D -> C) l :
  Forall (fun d => f (g d) = ROk (h d)) l -> rmap f (map g l) = ROk (map h l).
Proof.
  induction 1 as [|d l Hd _ IH]; cbn [rmap map]; [reflexivity|].
  exact (ok_bind Hd (ok_bind IH eq_refl)).
Qed.

Lemma rmap_idx_retract {A C} (f : A -> res C) (g : C -> A) vs :
  Forall (fun v => f (g v) = ROk v) vs -> forall i, rmap_idx f i (map g vs) = ROk vs.
Proof.
  induction 1 as [|v vs Hv _ IH]; intros i; cbn [rmap_idx map]; [reflexivity|].
  exact (ok_bind (wrap_of_ok _ _ _ Hv) (ok_bind (IH _) eq_refl)).
Qed.

Lemma Forall_forallb {A} (P : A -> Prop) (c : A -> bool) l :
  (forall a, P a -> c a = true) -> Forall P l -> forallb c l = true.
Proof.
  intros Hc. induction 1 as [|a l Ha _ IH]; cbn [forallb]; [reflexivity|].
  rewrite (Hc a Ha), IH. reflexivity.
Qed.

(** a list of checked identities ([ChangeHash], [RollupId]) returns its input *)
Lemma rmap_check_sp {A} (c : A -> bool) (e : list tag) l :
  sp (rmap (fun h => rbind (require (c h) e) (fun _ => ROk h)) l)
     (fun vs => vs = l /\ forallb c l = true).
Proof.
  induction l as [|x r IH]; cbn [rmap forallb]; [split; reflexivity|].
  destruct (c x); cbn [require rbind]; [|exact I].
  apply (sp_bind IH); intros ys [-> Hall]. split; [reflexivity|exact Hall].
Qed.

Lemma rmap_check_ok {A} (c : A -> bool) (e : list tag) l :
  forallb c l = true ->
  rmap (fun h => rbind (require (c h) e) (fun _ => ROk h)) l = ROk l.
Proof.
  induction l as [|x r IH]; cbn [rmap forallb]; intros H; [reflexivity|].
  apply andb_prop in H. destruct H as [Hx Hr]. rewrite Hx. cbn [require rbind].
  rewrite (IH Hr). reflexivity.
Qed.

Section Proofs.
  Variable B : Type.
  Variable blen : B -> N.
  Variable beq : B -> B -> bool.
  Variable cat : B -> B -> B.
  Variable sha leafH : B -> B.
  Variable nodeH : B -> B -> B.
  Variable emptyH : B.
  Variable cid_ok : B -> bool.
  Variable eci_parse : B -> eci_res.
  Variable vk_ok : B -> bool.
  Variable sig_ok : B -> B -> B -> bool.
  Variable body_url : B.
  Variable body_parse : B -> body_res.

  Local Notation pverify := (pverify B beq nodeH).
  Local Notation verifies := (verifies B beq nodeH).
  Local Notation check_verify := (check_verify B beq nodeH).
  Local Notation proof_from_raw := (@proof_from_raw B).
  Local Notation proof_to_raw := (@proof_to_raw B).
  Local Notation proof_wf := (@proof_wf B).
  Local Notation field_proof := (@field_proof B).
  Local Notation header_from_raw := (header_from_raw B blen cid_ok).
  Local Notation header_checks := (header_checks B blen cid_ok).
  Local Notation rollup_txs_from_raw := (rollup_txs_from_raw B blen).
  Local Notation eci_from_raw := (eci_from_raw B beq sha leafH nodeH eci_parse).
  Local Notation opt_eci_from_raw := (opt_eci_from_raw B beq sha leafH nodeH eci_parse).
  Local Notation eci_checks := (eci_checks B beq sha leafH nodeH eci_parse).
  Local Notation rollup_txs_collect := (rollup_txs_collect B beq).
  Local Notation check_rollup_proofs := (check_rollup_proofs B beq cat leafH nodeH emptyH).
  Local Notation rollup_proofs_verify := (rollup_proofs_verify B beq cat leafH nodeH emptyH).
  Local Notation tx_from_raw := (tx_from_raw B blen beq vk_ok sig_ok body_url body_parse).
  Local Notation seq_block_from_raw :=
    (seq_block_from_raw B blen beq cat sha leafH nodeH emptyH cid_ok eci_parse).
  Local Notation filtered_from_raw :=
    (filtered_from_raw B blen beq cat sha leafH nodeH emptyH cid_ok eci_parse).
  Local Notation meta_from_raw := (meta_from_raw B blen beq sha leafH nodeH emptyH cid_ok eci_parse).
  Local Notation rollup_data_from_raw := (rollup_data_from_raw B blen).
  Local Notation all32 l := (forallb (fun h => blen h =? 32) l = true).

  Lemma proof_from_raw_sp r : sp (proof_from_raw r) (fun p => proof_wf p = true).
  Proof.
    unfold DecodeModel.proof_from_raw, try_into_proof, DecodeModel.proof_wf.
    destruct (rp_size r =? 0) eqn:Hs; [exact I|].
    destruct (is_leaf_index_in_tree (rp_idx r) (rp_size r)) eqn:Hin; cbn [negb]; [|exact I].
    destruct (rp_extra r =? 0); cbn [negb]; [|exact I].
    cbn [sp tree_size leaf_index]. rewrite Hs, Hin. reflexivity.
  Qed.

  Lemma try_into_proof_wf p : proof_wf p = true ->
    try_into_proof B (audit_path p) 0 (leaf_index p) (tree_size p) = DOk p.
  Proof.
    unfold DecodeModel.proof_wf, try_into_proof. intros H. apply andb_prop in H.
    destruct H as [Hs Hin]. apply negb_true_iff in Hs. rewrite Hs, Hin. destruct p. reflexivity.
  Qed.

  Lemma proof_roundtrip p : proof_wf p = true -> proof_from_raw (proof_to_raw p) = ROk p.
  Proof.
    intros H. unfold DecodeModel.proof_from_raw, DecodeModel.proof_to_raw.
    cbn [rp_path rp_extra rp_idx rp_size]. rewrite (try_into_proof_wf p H). reflexivity.
  Qed.

  (** the only possible panic of a decoder is a proof verification, and a well-formed proof
      rules it out *)
  Lemma check_verify_sp {p} l root e : proof_wf p = true ->
    sp (check_verify p l root e) (fun _ => verifies p l root = true).
  Proof.
    intros Hwf.
    pose proof (verify_never_panics B nodeH beq (audit_path p) 0 (leaf_index p) (tree_size p)) as T.
    rewrite (try_into_proof_wf p Hwf) in T.
    unfold DecodeModel.check_verify, DecodeModel.verifies, DecodeModel.pverify.
    destruct (T l root) as [[|] ->]; [reflexivity|exact I].
  Qed.

  Lemma verifies_check p l root e : verifies p l root = true -> check_verify p l root e = ROk tt.
  Proof.
    unfold DecodeModel.check_verify, DecodeModel.verifies.
    destruct (pverify p l root) as [[|]|]; congruence.
  Qed.

  Lemma field_proof_sp n e r : sp (field_proof n e r) (fun p => proof_wf p = true).
  Proof.
    unfold DecodeModel.field_proof. destruct r; [apply sp_wrap, proof_from_raw_sp|exact I].
  Qed.

  Lemma field_proof_roundtrip n e p : proof_wf p = true ->
    field_proof n e (Some (proof_to_raw p)) = ROk p.
  Proof. intros H. apply wrap_of_ok, proof_roundtrip, H. Qed.

  Lemma header_sp r : sp (header_from_raw r) (fun h => header_checks h = true).
  Proof.
    unfold DecodeModel.header_from_raw, DecodeModel.header_checks.
    apply sp_require; intros H1. apply sp_require; intros H2.
    destruct (rh_time B r) as [t|]; [|exact I].
    apply sp_require; intros H3. apply sp_require; intros H4.
    apply sp_require; intros H5. apply sp_require; intros H6.
    cbn [sp h_cid h_height h_time h_rtr h_dh h_pa]. rewrite H1, H2, H3, H4, H5, H6. reflexivity.
  Qed.

  Lemma header_roundtrip h : header_checks h = true ->
    header_from_raw (header_to_raw B h) = ROk h.
  Proof.
    unfold DecodeModel.header_checks, DecodeModel.header_from_raw, header_to_raw.
    cbn [rh_cid rh_height rh_time rh_rtr rh_dh rh_pa]. intros H. rewrite !andb_true_iff in H.
    destruct H as [[[[[Hcid Hheight] Htime] Hrtr] Hdh] Hpa].
    rewrite Hcid, Hheight, Htime, Hrtr, Hdh, Hpa. cbn [require rbind]. destruct h. reflexivity.
  Qed.

  Definition rt_wf (rt : RollupTxs B) : bool := (blen (r_id B rt) =? 32) && proof_wf (r_proof B rt).

  Lemma rollup_txs_sp r : sp (rollup_txs_from_raw r) (fun rt => rt_wf rt = true).
  Proof.
    unfold DecodeModel.rollup_txs_from_raw, rt_wf. destruct (rr_id B r) as [id|]; [|exact I].
    apply sp_require; intros Hid. destruct (rr_proof B r) as [rp|]; [|exact I].
    apply (sp_bind (sp_wrap (proof_from_raw_sp rp))); intros p Hp.
    cbn [sp r_id r_proof]. rewrite Hid, Hp. reflexivity.
  Qed.

  Lemma rollup_txs_roundtrip rt : rt_wf rt = true ->
    rollup_txs_from_raw (rollup_txs_to_raw B rt) = ROk rt.
  Proof.
    unfold rt_wf, DecodeModel.rollup_txs_from_raw, rollup_txs_to_raw. cbn [rr_id rr_txs rr_proof].
    intros H. apply andb_prop in H. destruct H as [Hid Hp].
    apply (ok_require Hid), (ok_bind (wrap_of_ok _ _ _ (proof_roundtrip _ Hp))).
    destruct rt. reflexivity.
  Qed.

  Definition eci_wf (e : option (Eci B)) : Prop :=
    match e with Some x => proof_wf (e_proof B x) = true | None => True end.

  Lemma eci_sp dh r :
    sp (eci_from_raw dh r) (fun e => eci_checks dh (Some e) = true /\ eci_wf (Some e)).
  Proof.
    unfold DecodeModel.eci_from_raw, DecodeModel.eci_checks, eci_wf.
    destruct (re_proof B r) as [rp|]; [|exact I].
    apply (sp_bind (proof_from_raw_sp rp)); intros p Hwf.
    apply (sp_bind (check_verify_sp _ _ _ Hwf)); intros _ Hv.
    destruct (eci_parse (re_bytes B r)) eqn:Hparse; try exact I.
    cbn [sp e_proof e_bytes]. rewrite Hv, Hparse. split; [reflexivity|exact Hwf].
  Qed.

  Lemma opt_eci_sp dh r :
    sp (opt_eci_from_raw dh r) (fun e => eci_checks dh e = true /\ eci_wf e).
  Proof.
    unfold DecodeModel.opt_eci_from_raw. destruct r as [x|]; [|split; [reflexivity|exact I]].
    apply (sp_bind (sp_wrap (eci_sp dh x))); intros e He. exact He.
  Qed.

  Lemma opt_eci_roundtrip dh e : eci_checks dh e = true -> eci_wf e ->
    opt_eci_from_raw dh (option_map (eci_to_raw B) e) = ROk e.
  Proof.
    destruct e as [x|]; cbn [option_map]; [|reflexivity].
    unfold DecodeModel.eci_checks, DecodeModel.opt_eci_from_raw, DecodeModel.eci_from_raw, eci_to_raw.
    cbn [re_bytes re_proof eci_wf]. intros H Hwf. apply andb_prop in H. destruct H as [Hv Hp].
    rewrite (proof_roundtrip _ Hwf). cbn [rbind].
    rewrite (verifies_check _ _ _ [TNotInSequencerBlock] Hv). cbn [rbind].
    destruct (eci_parse (e_bytes B x)); try discriminate Hp. cbn [wrap rbind]. destruct x. reflexivity.
  Qed.

  Definition vals_ok (P : RollupTxs B -> Prop) (m : list (B * RollupTxs B)) : Prop :=
    Forall (fun kv => P (snd kv)) m.

  Lemma imap_insert_vals P (m : list (B * RollupTxs B)) k v :
    vals_ok P m -> P v -> vals_ok P (imap_insert B beq m k v).
  Proof.
    unfold vals_ok. induction m as [|[k' v'] r IH]; cbn [imap_insert]; intros Hm Hv.
    - constructor; [exact Hv|constructor].
    - inversion Hm as [|? ? Hh Ht]; subst. destruct (beq k' k).
      + constructor; [exact Hv|exact Ht].
      + constructor; [exact Hh|apply IH; assumption].
  Qed.

  Lemma collect_ind (I : list (B * RollupTxs B) -> Prop) (Q : RollupTxs B -> Prop) :
    I [] -> (forall m v, I m -> Q v -> I (imap_insert B beq m (r_id B v) v)) ->
    forall l, Forall Q l -> I (rollup_txs_collect l).
  Proof.
    intros H0 Hstep l Hl. unfold DecodeModel.rollup_txs_collect, imap_collect.
    revert H0. generalize (@nil (B * RollupTxs B)).
    induction Hl as [|v r Hv _ IH]; cbn [map fold_left fst snd]; intros acc Hacc; [exact Hacc|].
    apply IH, Hstep; assumption.
  Qed.

  Lemma collect_vals P (l : list (RollupTxs B)) :
    Forall P l -> vals_ok P (rollup_txs_collect l).
  Proof. apply collect_ind; [constructor|]. intros m v. apply imap_insert_vals. Qed.

  Lemma check_rollup_proofs_sp e rtr m : vals_ok (fun rt => rt_wf rt = true) m ->
    sp (check_rollup_proofs e rtr m) (fun _ => rollup_proofs_verify rtr m = true).
  Proof.
    unfold vals_ok, DecodeModel.rollup_proofs_verify.
    induction 1 as [|[k rt] r Hwf _ IH]; cbn [DecodeModel.check_rollup_proofs forallb snd] in *;
      [reflexivity|].
    apply andb_prop in Hwf.
    apply (sp_bind (check_verify_sp _ _ _ (proj2 Hwf))); intros _ Hv. rewrite Hv. exact IH.
  Qed.

  Lemma rollup_proofs_verify_check e rtr m :
    rollup_proofs_verify rtr m = true -> check_rollup_proofs e rtr m = ROk tt.
  Proof.
    unfold DecodeModel.rollup_proofs_verify.
    induction m as [|[k rt] r IH]; cbn [DecodeModel.check_rollup_proofs forallb]; intros H.
    - reflexivity.
    - apply andb_prop in H. destruct H as [Hv Hr].
      exact (ok_bind (verifies_check _ _ _ _ Hv) (IH Hr)).
  Qed.

  Lemma rollup_txs_list_roundtrip (m : list (B * RollupTxs B)) :
    vals_ok (fun rt => rt_wf rt = true) m ->
    rmap rollup_txs_from_raw (map (fun kv => rollup_txs_to_raw B (snd kv)) m) = ROk (map snd m).
  Proof.
    intros H. apply rmap_retract. eapply Forall_impl; [|exact H].
    intros kv. apply rollup_txs_roundtrip.
  Qed.

  Section Beq.
    Hypothesis Hbeq : BeqSpec B beq.

    Lemma beq_false a b : a <> b -> beq a b = false.
    Proof.
      intros Hne. destruct (beq a b) eqn:E; [|reflexivity]. apply Hbeq in E. contradiction.
    Qed.

    Lemma beq_refl a : beq a a = true.
    Proof. apply Hbeq. reflexivity. Qed.

    Definition imap_inv (m : list (B * RollupTxs B)) : Prop :=
      Forall (fun kv => fst kv = r_id B (snd kv)) m /\ NoDup (map fst m).

    Lemma imap_insert_fresh (m : list (B * RollupTxs B)) k v :
      ~ In k (map fst m) -> imap_insert B beq m k v = m ++ [(k, v)].
    Proof.
      induction m as [|[k' v'] r IH]; cbn [imap_insert map fst In app]; intros Hn; [reflexivity|].
      rewrite beq_false by (intros ->; apply Hn; left; reflexivity).
      rewrite IH; [reflexivity|]. intros Hin. apply Hn. right. exact Hin.
    Qed.

    Lemma imap_insert_keys (m : list (B * RollupTxs B)) k v :
      In k (map fst m) -> map fst (imap_insert B beq m k v) = map fst m.
    Proof.
      induction m as [|[k' v'] r IH]; cbn [imap_insert map fst In]; intros Hin; [contradiction|].
      destruct (beq k' k) eqn:E; cbn [map fst]; [reflexivity|].
      destruct Hin as [->|Hin]; [rewrite beq_refl in E; discriminate|].
      rewrite (IH Hin). reflexivity.
    Qed.

    Lemma imap_insert_ids (m : list (B * RollupTxs B)) v :
      Forall (fun kv => fst kv = r_id B (snd kv)) m ->
      Forall (fun kv => fst kv = r_id B (snd kv)) (imap_insert B beq m (r_id B v) v).
    Proof.
      induction m as [|[k' v'] r IH]; cbn [imap_insert]; intros Hm.
      - constructor; [reflexivity|constructor].
      - inversion Hm as [|? ? Hh Ht]; subst. destruct (beq k' (r_id B v)) eqn:E.
        + apply Hbeq in E. constructor; [exact E|exact Ht].
        + constructor; [exact Hh|apply IH; exact Ht].
    Qed.

    Lemma In_dec_keys k (l : list B) : In k l \/ ~ In k l.
    Proof.
      induction l as [|x r IH]; [right; intros []|].
      destruct (beq x k) eqn:E.
      - left. left. apply Hbeq. exact E.
      - destruct IH as [Hin|Hn]; [left; right; exact Hin|].
        right. intros [->|Hin]; [rewrite beq_refl in E; discriminate|contradiction].
    Qed.

    Lemma imap_insert_inv m v : imap_inv m -> imap_inv (imap_insert B beq m (r_id B v) v).
    Proof.
      intros [Hids Hnd]. split; [apply imap_insert_ids; exact Hids|].
      destruct (In_dec_keys (r_id B v) (map fst m)) as [Hin|Hn].
      - rewrite imap_insert_keys by exact Hin. exact Hnd.
      - rewrite imap_insert_fresh by exact Hn. rewrite map_app. cbn [map fst].
        apply (NoDup_Add (Add_app _ _ [])). rewrite app_nil_r. split; assumption.
    Qed.

    Lemma collect_inv (l : list (RollupTxs B)) : imap_inv (rollup_txs_collect l).
    Proof.
      apply (collect_ind imap_inv (fun _ => True)).
      - split; constructor.
      - intros m v Hm _. apply imap_insert_inv, Hm.
      - apply Forall_forall. intros v _. exact I.
    Qed.

    Lemma collect_idem (m : list (B * RollupTxs B)) :
      imap_inv m -> rollup_txs_collect (map snd m) = m.
    Proof.
      unfold DecodeModel.rollup_txs_collect, imap_collect.
      induction m as [|[k v] m IH] using rev_ind; [reflexivity|]. intros [Hids Hnd].
      apply Forall_app in Hids. destruct Hids as [Hids Hk]. apply Forall_inv in Hk.
      rewrite map_app in Hnd. apply NoDup_remove in Hnd. rewrite app_nil_r in Hnd.
      rewrite !map_app, fold_left_app, IH by (split; [exact Hids|apply Hnd]).
      cbn [map fold_left fst snd] in *. rewrite <- Hk. apply imap_insert_fresh, Hnd.
    Qed.
  End Beq.

  (** everything the decoder establishes about an accepted block *)
  Record seq_block_facts (v : SeqBlock B) : Prop := {
    sf_checks : seq_block_checks B blen beq cat sha leafH nodeH emptyH cid_ok eci_parse v = true;
    sf_rtp : proof_wf (s_rtp B v) = true;
    sf_rip : proof_wf (s_rip B v) = true;
    sf_vals : vals_ok (fun rt => rt_wf rt = true) (s_rts B v);
    sf_inv : BeqSpec B beq -> imap_inv (s_rts B v);
    sf_uch : all32 (s_uch B v);
    sf_eci : eci_wf (s_eci B v)
  }.

  Lemma seq_block_sp r : sp (seq_block_from_raw r) seq_block_facts.
  Proof.
    unfold DecodeModel.seq_block_from_raw.
    apply sp_require; intros Hbh.
    apply (sp_bind (field_proof_sp _ _ _)); intros rtp Hrtp.
    apply (sp_bind (field_proof_sp _ _ _)); intros rip Hrip.
    destruct (rs_hdr B r) as [rh|]; [|exact I].
    apply (sp_bind (sp_wrap (header_sp rh))); intros h Hh.
    apply (sp_bind (sp_wrap (sp_rmap rollup_txs_sp _))); intros rts Hrts.
    apply (collect_vals _ rts) in Hrts. cbv zeta.
    apply (sp_bind (check_verify_sp _ _ _ Hrtp)); intros _ Hv1.
    apply (sp_bind (check_verify_sp _ _ _ Hrtp)); intros _ Hv2.
    apply (sp_bind (check_verify_sp _ _ _ Hrip)); intros _ Hv3.
    apply (sp_bind (check_rollup_proofs_sp _ _ _ Hrts)); intros _ Hv4.
    apply (sp_bind (rmap_check_sp _ _ _)); intros uch [-> Huch].
    apply (sp_bind (opt_eci_sp _ _)); intros eci [Hec Hewf].
    constructor; cbn [s_bh s_hdr s_rts s_rtp s_rip s_uch s_eci]; try assumption.
    - unfold DecodeModel.seq_block_checks. cbn [s_bh s_hdr s_rts s_rtp s_rip s_uch s_eci].
      rewrite Hbh, Hh, Hv1, Hv2, Hv3, Hv4, Hec. reflexivity.
    - intros Hb. apply (collect_inv Hb).
  Qed.

  Lemma seq_block_ok r v : seq_block_from_raw r = ROk v -> seq_block_facts v.
  Proof. exact (sp_ok (seq_block_sp r) v). Qed.

  Lemma seq_block_roundtrip (Hbeq : BeqSpec B beq) v :
    seq_block_facts v -> seq_block_from_raw (seq_block_to_raw B v) = ROk v.
  Proof.
    intros [Hc Hrtp Hrip Hvals Hinv Huch Heci].
    unfold DecodeModel.seq_block_checks in Hc. cbv zeta in Hc. rewrite !andb_true_iff in Hc.
    destruct Hc as [[[[[[Hbh Hhdr] Hrtr] Hroot] Hids] Hrps] Hec].
    unfold DecodeModel.seq_block_from_raw, seq_block_to_raw.
    cbn [rs_bh rs_hdr rs_rts rs_rtp rs_rip rs_uch rs_eci].
    apply (ok_require Hbh).
    apply (ok_bind (field_proof_roundtrip _ _ _ Hrtp)), (ok_bind (field_proof_roundtrip _ _ _ Hrip)).
    apply (ok_bind (wrap_of_ok _ _ _ (header_roundtrip _ Hhdr))).
    apply (ok_bind (wrap_of_ok _ _ _ (rollup_txs_list_roundtrip _ Hvals))).
    cbv zeta. rewrite (collect_idem Hbeq _ (Hinv Hbeq)).
    apply (ok_bind (verifies_check _ _ _ _ Hrtr)), (ok_bind (verifies_check _ _ _ _ Hroot)).
    apply (ok_bind (verifies_check _ _ _ _ Hids)), (ok_bind (rollup_proofs_verify_check _ _ _ Hrps)).
    apply (ok_bind (rmap_check_ok _ _ _ Huch)), (ok_bind (opt_eci_roundtrip _ _ Hec Heci)).
    destruct v. reflexivity.
  Qed.

  Record filtered_facts (v : Filtered B) : Prop := {
    ff_checks : filtered_checks B blen beq cat sha leafH nodeH emptyH cid_ok eci_parse v = true;
    ff_rtp : proof_wf (f_rtp B v) = true;
    ff_rip : proof_wf (f_rip B v) = true;
    ff_vals : vals_ok (fun rt => rt_wf rt = true) (f_rts B v);
    ff_inv : BeqSpec B beq -> imap_inv (f_rts B v);
    ff_all : all32 (f_all B v);
    ff_uch : all32 (f_uch B v);
    ff_eci : eci_wf (f_eci B v)
  }.

  Lemma filtered_sp r : sp (filtered_from_raw r) filtered_facts.
  Proof.
    unfold DecodeModel.filtered_from_raw.
    apply sp_require; intros Hbh.
    apply (sp_bind (field_proof_sp _ _ _)); intros rtp Hrtp.
    apply (sp_bind (field_proof_sp _ _ _)); intros rip Hrip.
    destruct (rf_hdr B r) as [rh|]; [|exact I].
    apply (sp_bind (sp_wrap (header_sp rh))); intros h Hh.
    apply (sp_bind (sp_wrap (sp_rmap rollup_txs_sp _))); intros rts Hrts.
    apply (collect_vals _ rts) in Hrts. cbv zeta.
    apply (sp_bind (rmap_check_sp _ _ _)); intros all [-> Hall].
    apply (sp_bind (check_verify_sp _ _ _ Hrtp)); intros _ Hv1.
    apply (sp_bind (check_rollup_proofs_sp _ _ _ Hrts)); intros _ Hv2.
    apply (sp_bind (check_verify_sp _ _ _ Hrip)); intros _ Hv3.
    apply (sp_bind (rmap_check_sp _ _ _)); intros uch [-> Huch].
    apply (sp_bind (opt_eci_sp _ _)); intros eci [Hec Hewf].
    constructor; cbn [f_bh f_hdr f_rts f_rtp f_all f_rip f_uch f_eci]; try assumption.
    - unfold DecodeModel.filtered_checks. cbn [f_bh f_hdr f_rts f_rtp f_all f_rip f_uch f_eci].
      rewrite Hbh, Hh, Hv1, Hv2, Hv3, Hec. reflexivity.
    - intros Hb. apply (collect_inv Hb).
  Qed.

  Lemma filtered_ok r v : filtered_from_raw r = ROk v -> filtered_facts v.
  Proof. exact (sp_ok (filtered_sp r) v). Qed.

  Lemma filtered_roundtrip (Hbeq : BeqSpec B beq) v :
    filtered_facts v -> filtered_from_raw (filtered_to_raw B v) = ROk v.
  Proof.
    intros [Hc Hrtp Hrip Hvals Hinv Hall Huch Heci].
    unfold DecodeModel.filtered_checks in Hc. cbv zeta in Hc. rewrite !andb_true_iff in Hc.
    destruct Hc as [[[[[Hbh Hhdr] Hrtr] Hrps] Hids] Hec].
    unfold DecodeModel.filtered_from_raw, filtered_to_raw.
    cbn [rf_bh rf_hdr rf_rts rf_rtp rf_all rf_rip rf_uch rf_eci].
    apply (ok_require Hbh).
    apply (ok_bind (field_proof_roundtrip _ _ _ Hrtp)), (ok_bind (field_proof_roundtrip _ _ _ Hrip)).
    apply (ok_bind (wrap_of_ok _ _ _ (header_roundtrip _ Hhdr))).
    apply (ok_bind (wrap_of_ok _ _ _ (rollup_txs_list_roundtrip _ Hvals))).
    cbv zeta. rewrite (collect_idem Hbeq _ (Hinv Hbeq)).
    apply (ok_bind (rmap_check_ok _ _ _ Hall)), (ok_bind (verifies_check _ _ _ _ Hrtr)).
    apply (ok_bind (rollup_proofs_verify_check _ _ _ Hrps)), (ok_bind (verifies_check _ _ _ _ Hids)).
    apply (ok_bind (rmap_check_ok _ _ _ Huch)), (ok_bind (opt_eci_roundtrip _ _ Hec Heci)).
    destruct v. reflexivity.
  Qed.

  Record meta_facts (v : Meta B) : Prop := {
    mf_checks : meta_checks B blen beq sha leafH nodeH emptyH cid_ok eci_parse v = true;
    mf_rtp : proof_wf (m_rtp B v) = true;
    mf_rip : proof_wf (m_rip B v) = true;
    mf_ids : all32 (m_ids B v);
    mf_uch : all32 (m_uch B v);
    mf_eci : eci_wf (m_eci B v)
  }.

  Lemma meta_sp r : sp (meta_from_raw r) meta_facts.
  Proof.
    unfold DecodeModel.meta_from_raw.
    destruct (rm_hdr B r) as [rh|]; [|exact I].
    apply (sp_bind (sp_wrap (header_sp rh))); intros h Hh.
    apply (sp_bind (rmap_check_sp _ _ _)); intros ids [-> Hids].
    apply (sp_bind (field_proof_sp _ _ _)); intros rtp Hrtp.
    apply (sp_bind (field_proof_sp _ _ _)); intros rip Hrip.
    apply sp_require; intros Hbh. cbv zeta.
    apply (sp_bind (rmap_check_sp _ _ _)); intros uch [-> Huch].
    apply (sp_bind (opt_eci_sp _ _)); intros eci [Hec Hewf].
    apply (sp_bind (check_verify_sp _ _ _ Hrtp)); intros _ Hv1.
    apply (sp_bind (check_verify_sp _ _ _ Hrip)); intros _ Hv2.
    constructor; cbn [m_bh m_hdr m_ids m_rtp m_rip m_uch m_eci]; try assumption.
    - unfold DecodeModel.meta_checks. cbn [m_bh m_hdr m_ids m_rtp m_rip m_uch m_eci].
      rewrite Hbh, Hh, Hv1, Hv2, Hec. reflexivity.
  Qed.

  Lemma meta_ok r v : meta_from_raw r = ROk v -> meta_facts v.
  Proof. exact (sp_ok (meta_sp r) v). Qed.

  Lemma meta_roundtrip v : meta_facts v -> meta_from_raw (meta_to_raw B v) = ROk v.
  Proof.
    intros [Hc Hrtp Hrip Hall Huch Heci].
    unfold DecodeModel.meta_checks in Hc. cbv zeta in Hc. rewrite !andb_true_iff in Hc.
    destruct Hc as [[[[Hbh Hhdr] Hrtr] Hids] Hec].
    unfold DecodeModel.meta_from_raw, meta_to_raw.
    cbn [rm_bh rm_hdr rm_ids rm_rtp rm_rip rm_uch rm_eci].
    apply (ok_bind (wrap_of_ok _ _ _ (header_roundtrip _ Hhdr))), (ok_bind (rmap_check_ok _ _ _ Hall)).
    apply (ok_bind (field_proof_roundtrip _ _ _ Hrtp)), (ok_bind (field_proof_roundtrip _ _ _ Hrip)).
    apply (ok_require Hbh). cbv zeta.
    apply (ok_bind (rmap_check_ok _ _ _ Huch)), (ok_bind (opt_eci_roundtrip _ _ Hec Heci)).
    apply (ok_bind (verifies_check _ _ _ _ Hrtr)), (ok_bind (verifies_check _ _ _ _ Hids)).
    destruct v. reflexivity.
  Qed.

  Lemma rollup_data_sp r :
    sp (rollup_data_from_raw r) (fun v => rollup_data_checks B blen v = true).
  Proof.
    unfold DecodeModel.rollup_data_from_raw, DecodeModel.rollup_data_checks.
    destruct (rd_id B r) as [id|]; [|exact I].
    apply sp_require; intros Hid. apply sp_require; intros Hbh.
    destruct (rd_proof B r) as [rp|]; [|exact I].
    apply (sp_bind (sp_wrap (proof_from_raw_sp rp))); intros p Hp.
    cbn [sp d_bh d_id d_proof]. rewrite Hid, Hbh, Hp. reflexivity.
  Qed.

  Lemma rollup_data_ok r v : rollup_data_from_raw r = ROk v ->
    rollup_data_checks B blen v = true.
  Proof. exact (sp_ok (rollup_data_sp r) v). Qed.

  Lemma rollup_data_roundtrip v : rollup_data_checks B blen v = true ->
    rollup_data_from_raw (rollup_data_to_raw B v) = ROk v.
  Proof.
    unfold DecodeModel.rollup_data_checks, DecodeModel.rollup_data_from_raw, rollup_data_to_raw.
    cbn [rd_bh rd_id rd_txs rd_proof]. intros H.
    apply andb_prop in H. destruct H as [H Hp]. apply andb_prop in H. destruct H as [Hbh Hid].
    apply (ok_require Hid), (ok_require Hbh), (ok_bind (wrap_of_ok _ _ _ (proof_roundtrip _ Hp))).
    destruct v. reflexivity.
  Qed.

  Lemma tx_sp r : sp (tx_from_raw r) (fun v => tx_checks B blen vk_ok sig_ok body_parse v = true).
  Proof.
    unfold DecodeModel.tx_from_raw, DecodeModel.tx_checks.
    apply sp_require; intros H1. apply sp_require; intros H2.
    apply andb_prop in H2. destruct H2 as [H2 H2'].
    destruct (rt_body B r) as [[url value]|]; [|exact I].
    apply sp_require; intros H3. apply sp_require; intros _.
    destruct (body_parse value) eqn:Hb; [|exact I].
    cbn [sp t_sig t_vk t_body]. rewrite H1, H2, H2', H3, Hb. reflexivity.
  Qed.

  Lemma tx_roundtrip (Hbeq : BeqSpec B beq) v :
    tx_checks B blen vk_ok sig_ok body_parse v = true ->
    tx_from_raw (tx_to_raw B body_url v) = ROk v.
  Proof.
    unfold DecodeModel.tx_checks, DecodeModel.tx_from_raw, tx_to_raw.
    cbn [rt_sig rt_pk rt_body]. intros H. rewrite !andb_true_iff in H.
    destruct H as [[[[Hsig Hlen] Hvk] Hsigned] Hbody].
    rewrite Hsig, Hlen, Hvk, Hsigned. cbn [andb require rbind].
    rewrite (beq_refl Hbeq). cbn [require rbind].
    destruct (body_parse (t_body B v)); [|discriminate Hbody]. destruct v. reflexivity.
  Qed.

  Theorem decode_total_sec :
    stmt_decode_total B blen beq cat sha leafH nodeH emptyH cid_ok eci_parse vk_ok sig_ok
                      body_url body_parse.
  Proof.
    unfold stmt_decode_total, meta_list_from_raw, rollup_data_list_from_raw.
    repeat split; intros r.
    - exact (sp_np (tx_sp r)).
    - exact (sp_np (seq_block_sp r)).
    - exact (sp_np (filtered_sp r)).
    - exact (sp_np (meta_sp r)).
    - exact (sp_np (rollup_data_sp r)).
    - exact (sp_np (sp_rmap_idx meta_sp r 0)).
    - exact (sp_np (sp_rmap_idx rollup_data_sp r 0)).
  Qed.

  Theorem accepted_consistent_sec :
    stmt_accepted_consistent B blen beq cat sha leafH nodeH emptyH cid_ok eci_parse vk_ok sig_ok
                             body_url body_parse.
  Proof.
    unfold stmt_accepted_consistent, meta_list_from_raw, rollup_data_list_from_raw.
    repeat split; intros r v H.
    - exact (sp_ok (tx_sp r) v H).
    - exact (sf_checks v (seq_block_ok r v H)).
    - exact (ff_checks v (filtered_ok r v H)).
    - exact (mf_checks v (meta_ok r v H)).
    - exact (rollup_data_ok r v H).
    - exact (Forall_forallb _ _ v mf_checks (sp_ok (sp_rmap_idx meta_sp r 0) v H)).
    - exact (Forall_forallb _ _ v (fun _ C => C) (sp_ok (sp_rmap_idx rollup_data_sp r 0) v H)).
  Qed.

  Theorem reencode_sec :
    stmt_reencode B blen beq cat sha leafH nodeH emptyH cid_ok eci_parse vk_ok sig_ok
                  body_url body_parse.
  Proof.
    unfold stmt_reencode, meta_list_from_raw, rollup_data_list_from_raw.
    intros Hbeq. repeat split; intros r v H.
    - exact (tx_roundtrip Hbeq v (sp_ok (tx_sp r) v H)).
    - exact (seq_block_roundtrip Hbeq v (seq_block_ok r v H)).
    - exact (filtered_roundtrip Hbeq v (filtered_ok r v H)).
    - exact (meta_roundtrip v (meta_ok r v H)).
    - exact (rollup_data_roundtrip v (rollup_data_ok r v H)).
    - apply rmap_idx_retract. eapply Forall_impl; [exact meta_roundtrip|].
      exact (sp_ok (sp_rmap_idx meta_sp r 0) v H).
    - apply rmap_idx_retract. eapply Forall_impl; [exact rollup_data_roundtrip|].
      exact (sp_ok (sp_rmap_idx rollup_data_sp r 0) v H).
  Qed.
End Proofs.

Theorem decode_total : forall B blen beq cat sha leafH nodeH emptyH cid_ok eci_parse vk_ok sig_ok
                              body_url body_parse,
  stmt_decode_total B blen beq cat sha leafH nodeH emptyH cid_ok eci_parse vk_ok sig_ok
                    body_url body_parse.
Proof. exact decode_total_sec. Qed.

Theorem accepted_consistent : forall B blen beq cat sha leafH nodeH emptyH cid_ok eci_parse vk_ok
                                     sig_ok body_url body_parse,
  stmt_accepted_consistent B blen beq cat sha leafH nodeH emptyH cid_ok eci_parse vk_ok sig_ok
                           body_url body_parse.
Proof. exact accepted_consistent_sec. Qed.

Theorem reencode : forall B blen beq cat sha leafH nodeH emptyH cid_ok eci_parse vk_ok sig_ok
                          body_url body_parse,
  stmt_reencode B blen beq cat sha leafH nodeH emptyH cid_ok eci_parse vk_ok sig_ok
                body_url body_parse.
Proof. exact reencode_sec. Qed.

Theorem rollup_proofs_verify_accepted :
  forall B blen beq cat sha leafH nodeH emptyH cid_ok eci_parse,
    (forall r v,
       seq_block_from_raw B blen beq cat sha leafH nodeH emptyH cid_ok eci_parse r = ROk v ->
       rollup_proofs_verify B beq cat leafH nodeH emptyH (h_rtr B (s_hdr B v)) (s_rts B v) = true) /\
    (forall r v,
       filtered_from_raw B blen beq cat sha leafH nodeH emptyH cid_ok eci_parse r = ROk v ->
       rollup_proofs_verify B beq cat leafH nodeH emptyH (h_rtr B (f_hdr B v)) (f_rts B v) = true).
Proof.
  intros B blen beq cat sha leafH nodeH emptyH cid_ok eci_parse. split; intros r v H.
  - apply seq_block_ok, sf_checks in H. unfold seq_block_checks in H. cbv zeta in H.
    rewrite !andb_true_iff in H. destruct H as [[_ Hrps] _]. exact Hrps.
  - apply filtered_ok, ff_checks in H. unfold filtered_checks in H. cbv zeta in H.
    rewrite !andb_true_iff in H. destruct H as [[[_ Hrps] _] _]. exact Hrps.
Qed.

Theorem wire_lift : stmt_wire_lift.
Proof.
  unfold stmt_wire_lift, blob_decode, wire_decode.
  intros W Raw V wdec wenc decompress compress from_raw to_raw checks Hcodec Hbrotli Hnp Hchk Hrt w.
  repeat split.
  - destruct (wdec w); [apply Hnp|discriminate].
  - destruct (decompress w) as [d|]; [|discriminate]. destruct (wdec d); [apply Hnp|discriminate].
  - destruct (wdec w) as [r|]; [|discriminate]. eapply Hchk. exact H.
  - destruct (wdec w) as [r|]; [|discriminate]. rewrite Hcodec. eapply Hrt. exact H.
  - destruct (decompress w) as [d|]; [|discriminate].
    destruct (wdec d) as [r|]; [|discriminate]. eapply Hchk. exact H.
  - destruct (decompress w) as [d|]; [|discriminate].
    destruct (wdec d) as [r|]; [|discriminate]. rewrite Hbrotli, Hcodec. eapply Hrt. exact H.
Qed.

(** * a toy instantiation: non-vacuity and the refutation witness *)

Module Toy.
  Definition B : Type := (N * N)%type.           (* (length, content) *)
  Definition blen (x : B) : N := fst x.
  Definition beq (a b : B) : bool := (fst a =? fst b) && (snd a =? snd b).
  Definition cat (a b : B) : B := (fst a + fst b, snd a * 1000003 + snd b + 1).
  Definition sha (x : B) : B := (32, 7 * snd x + fst x + 3).
  Definition leafH (x : B) : B := (32, 2 * snd x + 1).
  Definition nodeH (a b : B) : B := (32, 3 * snd a + 5 * snd b + 11).
  Definition emptyH : B := (32, 0).
  Definition cid_ok (x : B) : bool := negb (fst x =? 0) && (fst x <=? 50).
  Definition eci_parse (_ : B) : eci_res := EciOk.
  Definition vk_ok (_ : B) : bool := true.
  Definition sig_ok (k s m : B) : bool := snd s =? snd k + snd m.
  Definition body_url : B := (5, 99).
  Definition body_parse (_ : B) : body_res := BodyOk.

  Lemma beq_spec : BeqSpec B beq.
  Proof.
    intros [a1 a2] [b1 b2]. unfold beq. cbn [fst snd]. split.
    - intros H. apply andb_prop in H. destruct H as [H1 H2].
      apply N.eqb_eq in H1, H2. subst. reflexivity.
    - intros H. injection H as -> ->. rewrite !N.eqb_refl. reflexivity.
  Qed.

  Definition seq_block_from_raw :=
    seq_block_from_raw B blen beq cat sha leafH nodeH emptyH cid_ok eci_parse.
  Definition filtered_from_raw :=
    filtered_from_raw B blen beq cat sha leafH nodeH emptyH cid_ok eci_parse.
  Definition meta_from_raw := meta_from_raw B blen beq sha leafH nodeH emptyH cid_ok eci_parse.
  Definition tx_from_raw := tx_from_raw B blen beq vk_ok sig_ok body_url body_parse.

  (** a block with one rollup without transactions *)
  Definition id0 : B := (32, 5).
  Definition good_rollup_proof : RawProof B :=
    {| rp_path := []; rp_extra := 0; rp_idx := 0; rp_size := 1 |}.
  Definition bad_rollup_proof : RawProof B :=
    {| rp_path := [(32, 12345)]; rp_extra := 0; rp_idx := 0; rp_size := 1 |}.
  Definition rtr : B := rollup_leaf B cat leafH nodeH emptyH id0 [].
  Definition l0 : B := leafH (sha rtr).
  Definition l1 : B := leafH (sha (ids_root B leafH nodeH emptyH [id0])).
  Definition dh : B := nodeH l0 l1.
  Definition hdr : RawHeader B :=
    {| rh_cid := (4, 1); rh_height := 7; rh_time := Some (1700000000, 5)%Z;
       rh_rtr := rtr; rh_dh := dh; rh_pa := (20, 9) |}.
  Definition rtp : RawProof B := {| rp_path := [l1]; rp_extra := 0; rp_idx := 0; rp_size := 3 |}.
  Definition rip : RawProof B := {| rp_path := [l0]; rp_extra := 0; rp_idx := 1; rp_size := 3 |}.
  Definition eci0 : B := (0, 0).
  Definition dh_eci : B := nodeH (nodeH l0 l1) (leafH (sha eci0)).

  Definition block (p : RawProof B) : RawSeqBlock B :=
    {| rs_bh := (32, 1); rs_hdr := Some hdr;
       rs_rts := [{| rr_id := Some id0; rr_txs := []; rr_proof := Some p |}];
       rs_rtp := Some rtp; rs_rip := Some rip; rs_uch := [(32, 77)]; rs_eci := None |}.

  Definition filtered (p : RawProof B) : RawFiltered B :=
    {| rf_bh := (32, 1); rf_hdr := Some hdr;
       rf_rts := [{| rr_id := Some id0; rr_txs := []; rr_proof := Some p |}];
       rf_rtp := Some rtp; rf_all := [id0]; rf_rip := Some rip; rf_uch := []; rf_eci := None |}.

  Definition meta : RawMeta B :=
    {| rm_bh := (32, 1); rm_hdr := Some hdr; rm_ids := [id0];
       rm_rtp := Some rtp; rm_rip := Some rip; rm_uch := []; rm_eci := None |}.

  Definition tx : RawTx B :=
    {| rt_sig := (64, 30); rt_pk := (32, 10); rt_body := Some (body_url, (9, 20)) |}.

  Definition is_ok {A} (x : res A) : bool := match x with ROk _ => true | _ => false end.

  (** non-vacuity: the block, filtered-block, metadata, rollup-data and transaction decoders
      each accept something *)
  Example block_accepted : is_ok (seq_block_from_raw (block good_rollup_proof)) = true.
  Proof. vm_compute. reflexivity. Qed.
  Example filtered_accepted : is_ok (filtered_from_raw (filtered good_rollup_proof)) = true.
  Proof. vm_compute. reflexivity. Qed.
  Example meta_accepted : is_ok (meta_from_raw meta) = true.
  Proof. vm_compute. reflexivity. Qed.
  Example tx_accepted : is_ok (tx_from_raw tx) = true.
  Proof. vm_compute. reflexivity. Qed.
  Example rollup_data_accepted :
    is_ok (rollup_data_from_raw B blen {| rd_bh := (32, 1); rd_id := Some id0; rd_txs := [];
                                          rd_proof := Some good_rollup_proof |}) = true.
  Proof. vm_compute. reflexivity. Qed.
  (** and rejects something for the reason the code gives *)
  Example filtered_rejects_bad_rollup_proof :
    filtered_from_raw (filtered bad_rollup_proof) =
    RErr [TRollupTransactionForIdNotInSequencerBlock].
  Proof. vm_compute. reflexivity. Qed.
  Example block_rejects_big_index :
    seq_block_from_raw
      (block {| rp_path := []; rp_extra := 0; rp_idx := 9223372036854775808; rp_size := 1 |}) =
    RErr [TParseRollupTransactions; TProofInvalid; TInvalidProof; TLeafIndexOutsideTree].
  Proof. vm_compute. reflexivity. Qed.

  Definition seq_block_from_raw_before_F11_fix :=
    seq_block_from_raw_before_F11_fix B blen beq cat sha leafH nodeH emptyH cid_ok eci_parse.

  (** the repaired decoder rejects the witness, with the error the fix returns *)
  Example block_rejects_bad_rollup_proof :
    seq_block_from_raw (block bad_rollup_proof) = RErr [TRollupTransactionsNotInSequencerBlock].
  Proof. vm_compute. reflexivity. Qed.
  (** both decoders agree on the honest block *)
  Example before_fix_accepts_good_block :
    seq_block_from_raw_before_F11_fix (block good_rollup_proof) =
    seq_block_from_raw (block good_rollup_proof).
  Proof. vm_compute. reflexivity. Qed.

  Definition accepted_with_bad_proof : bool :=
    match seq_block_from_raw_before_F11_fix (block bad_rollup_proof) with
    | ROk v => negb (rollup_proofs_verify B beq cat leafH nodeH emptyH (h_rtr B (s_hdr B v)) (s_rts B v))
    | _ => false
    end.

  Lemma accepted_with_bad_proof_true : accepted_with_bad_proof = true.
  Proof. vm_compute. reflexivity. Qed.

  (** BEFORE the F11 fix the full sequencer block was accepted although the inclusion proof of its
      only rollup does not verify against the header's rollup transactions root *)
  Lemma block_with_bad_rollup_proof_accepted :
    exists v, seq_block_from_raw_before_F11_fix (block bad_rollup_proof) = ROk v /\
              rollup_proofs_verify B beq cat leafH nodeH emptyH (h_rtr B (s_hdr B v)) (s_rts B v)
              = false.
  Proof.
    pose proof accepted_with_bad_proof_true as H. unfold accepted_with_bad_proof in H.
    destruct (seq_block_from_raw_before_F11_fix (block bad_rollup_proof)) as [v|e|]; try discriminate H.
    exists v. split; [reflexivity|]. apply negb_true_iff. exact H.
  Qed.
End Toy.

Theorem seq_block_before_F11_fix_refuted :
  exists B blen beq cat sha leafH nodeH emptyH cid_ok eci_parse,
    BeqSpec B beq /\
    ~ stmt_seq_block_rollup_proofs_before_F11_fix B blen beq cat sha leafH nodeH emptyH cid_ok
        eci_parse.
Proof.
  exists Toy.B, Toy.blen, Toy.beq, Toy.cat, Toy.sha, Toy.leafH, Toy.nodeH, Toy.emptyH,
         Toy.cid_ok, Toy.eci_parse.
  split; [exact Toy.beq_spec|].
  intros H. destruct Toy.block_with_bad_rollup_proof_accepted as [v [Hv Hbad]].
  specialize (H _ _ Hv). rewrite H in Hbad. discriminate.
Qed.
