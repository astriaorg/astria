(** C01 (conservation).  The supply of an asset is the sum of the listed balances, the escrow and
    the block fees: a move between listed accounts keeps it, a fee moves balance into the fee log,
    the end of the block moves the log back, and only a non-source Ics20 withdrawal lowers it. *)
From Astria Require Import Base.Bounded Ledger.LedgerModel Ledger.LedgerSpec Ledger.LedgerLemmas Ledger.LedgerEffect Ledger.LedgerSample.

(* the old and the new value are added on opposite sides, so that no subtraction is needed *)
Lemma c01a_sum_upd2 L (f : N -> N -> N) x a v ast :
  NoDup L -> In x L ->
  sum_over L (fun y => upd2 f x a v y ast) + (if a =? ast then f x a else 0)
  = sum_over L (fun y => f y ast) + (if a =? ast then v else 0).
Proof.
  intros Hnd Hin. destruct (N.eqb_spec a ast) as [->|Hne].
  - rewrite (sum_over_ext L (fun y => upd2 f x ast v y ast)
                            (fun y => if y =? x then v else f y ast)).
    + apply (sum_over_upd_in L (fun y => f y ast) x v Hnd Hin).
    + intros y _. unfold upd2. rewrite N.eqb_refl, Bool.andb_true_r. reflexivity.
  - rewrite (sum_over_ext L (fun y => upd2 f x a v y ast) (fun y => f y ast)).
    + lia.
    + intros y _. apply upd2_other_asset. congruence.
Qed.

Lemma c01a_sum_add_at L (f : N -> N) x t :
  NoDup L -> In x L ->
  sum_over L (fun y => f y + (if y =? x then t else 0)) = sum_over L f + t.
Proof.
  intros Hnd Hin. pose proof (sum_over_upd_in L f x (f x + t) Hnd Hin) as E.
  rewrite (sum_over_ext L _ (fun y => if y =? x then f x + t else f y)); [lia|].
  intros y _. destruct (N.eqb_spec y x); [subst|]; lia.
Qed.

Lemma c01a_supply_move L C s x y a amt ast :
  NoDup L -> In x L -> In y L -> can_move s x y a amt ->
  supply L C (move s x y a amt) ast = supply L C s ast.
Proof.
  intros Hnd Hx Hy [Hle _]. unfold supply, move, credit, debit. cbn [bal escrow block_fees set_bal].
  pose proof (c01a_sum_upd2 L (bal s) x a (bal s x a - amt) ast Hnd Hx) as E1.
  pose proof (c01a_sum_upd2 L (upd2 (bal s) x a (bal s x a - amt)) y a
                (upd2 (bal s) x a (bal s x a - amt) y a + amt) ast Hnd Hy) as E2.
  destruct (a =? ast); lia.
Qed.

Lemma c01a_pay_fee s signer k fa var pos s' evs L C ast :
  NoDup L -> In signer L ->
  pay_fee s signer k fa var pos = Ok (s', evs) ->
  supply L C s' ast = supply L C s ast /\ sudo s' = sudo s.
Proof.
  intros Hnd Hin H. apply pay_fee_ok in H. destruct H as (base & mult & _ & H).
  destruct fa as [a|].
  - destruct H as (_ & _ & Hle & -> & _). split; [|reflexivity]. cbv zeta in Hle.
    unfold supply, debit. cbn [bal escrow block_fees set_bal set_block_fees bf_total].
    pose proof (c01a_sum_upd2 L (bal s) signer a (bal s signer a - fee_amount base mult var) ast
                  Hnd Hin) as E.
    destruct (a =? ast); lia.
  - destruct H as [-> _]. split; reflexivity.
Qed.

Lemma c01a_move_listed signer a cap x y ast amt :
  act_move signer a cap = Some (x, y, ast, amt) ->
  (x = signer \/ In x (action_accounts a)) /\ In y (action_accounts a) /\
  forall t, burned_action a t = 0.
Proof. destruct a; intros [= <- <- _ _]; cbn; auto. Qed.

Lemma c01a_execute s signer tx idx ca s' L C ast :
  NoDup L -> NoDup C -> In signer L ->
  incl (action_accounts (fst ca)) L -> incl (action_channels (fst ca)) C ->
  execute_action s signer tx idx ca = Ok s' ->
  supply L C s' ast + burned_action (fst ca) ast = supply L C s ast.
Proof.
  intros HndL HndC Hs Hacc Hch H. destruct ca as [a cap]. cbn [fst] in *.
  apply execute_action_inv in H. destruct H as (_ & [Hmv Hpre] & ->).
  destruct (act_move signer a cap) as [[[[x y] ast0] amt]|] eqn:Em.
  - destruct (c01a_move_listed _ _ _ _ _ _ _ Em) as (Hx & Hy & ->). rewrite N.add_0_r.
    transitivity (supply L C (move s x y ast0 amt) ast).
    + unfold supply. cbn [bal escrow block_fees exec_state].
      rewrite (act_value_move _ _ _ _ _ _ _ _ Em). reflexivity.
    + apply c01a_supply_move; auto. destruct Hx as [->|Hx]; auto.
  - destruct a; try discriminate Em; cbn [burned_action action_accounts action_channels] in *;
      rewrite ?N.add_0_r; try reflexivity.
    (* Ics20 *)
    destruct Hpre as (_ & Hle & _).
    assert (Hfrom : In (ics_from signer b) L) by (destruct b; [apply Hacc; left|]; auto).
    assert (Hc : In c C) by (apply Hch; left; reflexivity).
    unfold supply.
    cbn [bal escrow block_fees exec_state act_value act_move set_escrow debit set_bal].
    pose proof (c01a_sum_upd2 L (bal s) (ics_from signer b) a
                  (bal s (ics_from signer b) a - amt) ast HndL Hfrom) as E1.
    pose proof (c01a_sum_upd2 C (escrow s) c a (escrow s c a + amt) ast HndC Hc) as E2.
    destruct is_source, (a =? ast); lia.
Qed.

(* the second conjunct goes up to the block: [end_block] credits the sudo address of that time,
   which must be listed; [ASudoChange] lists the one it installs *)
Lemma c01a_fee_exec s signer k fa var pos s0 e1 tx idx ca s1 L C ast :
  NoDup L -> NoDup C -> In signer L ->
  incl (action_accounts (fst ca)) L -> incl (action_channels (fst ca)) C ->
  pay_fee s signer k fa var pos = Ok (s0, e1) ->
  execute_action s0 signer tx idx ca = Ok s1 ->
  supply L C s1 ast + burned_action (fst ca) ast = supply L C s ast
  /\ (In (sudo s) L -> In (sudo s1) L).
Proof.
  intros HndL HndC Hs Hacc Hch Hp He.
  destruct (c01a_pay_fee _ _ _ _ _ _ _ _ L C ast HndL Hs Hp) as [Ep Sp].
  pose proof (c01a_execute _ _ _ _ _ _ L C ast HndL HndC Hs Hacc Hch He) as Ee.
  split; [lia|]. intros Hin. destruct ca as [a cap].
  apply execute_action_inv in He. destruct He as (_ & _ & ->).
  destruct a; try (cbn [sudo exec_state]; rewrite Sp; exact Hin). apply Hacc. left. reflexivity.
Qed.

Lemma action_conserves : stmt_action_conserves.
Proof.
  intros s signer tx idx ca s' evs L C ast HndL HndC Hs Hacc Hch H.
  apply pay_fees_and_execute_inv in H. destruct H as (s1 & Hp & He).
  exact (proj1 (c01a_fee_exec _ _ _ _ _ _ _ _ _ _ _ _ L C ast HndL HndC Hs Hacc Hch Hp He)).
Qed.

Lemma c01a_exec_actions signer tx L C ast l idx s s' evs :
  NoDup L -> NoDup C -> In signer L ->
  (forall ca, In ca l -> incl (action_accounts (fst ca)) L /\ incl (action_channels (fst ca)) C) ->
  exec_actions s signer tx idx l = Ok (s', evs) ->
  supply L C s' ast + sumN (map (fun ca => burned_action (fst ca) ast) l) = supply L C s ast
  /\ (In (sudo s) L -> In (sudo s') L).
Proof.
  intros HndL HndC Hs Hl H. revert l idx s s' evs H Hl.
  apply (exec_actions_ind signer tx (fun _ s l s' _ =>
    (forall ca, In ca l ->
                incl (action_accounts (fst ca)) L /\ incl (action_channels (fst ca)) C) ->
    supply L C s' ast + sumN (map (fun ca => burned_action (fst ca) ast) l) = supply L C s ast
    /\ (In (sudo s) L -> In (sudo s') L))).
  - intros _ s _. cbn [map sumN]. split; [lia|auto].
  - intros idx s ca l s0 s1 e1 s2 e2 Hp He IH Hl.
    destruct (Hl ca (or_introl eq_refl)) as [Hacc Hch].
    destruct (c01a_fee_exec _ _ _ _ _ _ _ _ _ _ _ _ L C ast HndL HndC Hs Hacc Hch Hp He)
      as [Ea Sa].
    destruct (IH (fun ca0 Hin => Hl ca0 (or_intror Hin))) as [Er Sr].
    cbn [map sumN]. split; [lia|auto].
Qed.

Lemma c01a_tx_accounts c L C :
  incl (tx_accounts c) L -> incl (tx_channels c) C ->
  In (ct_signer c) L /\
  forall ca, In ca (ct_actions c) ->
             incl (action_accounts (fst ca)) L /\ incl (action_channels (fst ca)) C.
Proof.
  intros HL HC. split.
  - apply HL. left. reflexivity.
  - intros ca Hin. split; intros y Hy.
    + apply HL. right. apply in_flat_map. exists ca. split; assumption.
    + apply HC. unfold tx_channels. apply in_flat_map. exists ca. split; assumption.
Qed.

Lemma c01a_tx s c s' evs L C ast :
  NoDup L -> NoDup C -> incl (tx_accounts c) L -> incl (tx_channels c) C ->
  exec_tx s c = (s', OutOk evs) ->
  supply L C s' ast + burned_tx c ast = supply L C s ast
  /\ (In (sudo s) L -> In (sudo s') L).
Proof.
  intros HndL HndC HL HC H. apply exec_tx_ok in H. destruct H as (_ & _ & H).
  destruct (c01a_tx_accounts c L C HL HC) as [Hs Hl].
  apply (c01a_exec_actions _ _ L C ast _ _ _ _ _ HndL HndC Hs Hl) in H.
  destruct (tx_start_shape s c) as (f & E & _). rewrite E in H. exact H.
Qed.

Lemma tx_conserves : stmt_tx_conserves.
Proof.
  intros s c s' evs L C ast HndL HndC HL HC H.
  exact (proj1 (c01a_tx _ _ _ _ L C ast HndL HndC HL HC H)).
Qed.

Lemma end_block_conserves : stmt_end_block_conserves.
Proof.
  intros s s' ds L C ast Hnd Hin H. apply end_block_ok in H. destruct H as (s1 & Hc & -> & _).
  split; [|reflexivity].
  apply credit_fees_ok in Hc. destruct Hc as [[f ->] Hb].
  unfold supply0, supply. cbn [bal escrow set_deposits set_block_fees set_bal] in *.
  rewrite (sum_over_ext L _ (fun y => bal s y ast +
             (if y =? sudo s then bf_total (block_fees s) ast else 0))) by (intros; apply Hb).
  rewrite c01a_sum_add_at by assumption. lia.
Qed.

Lemma c01a_last_tail (x : step_out) xs :
  (forall ds, x <> SEnd (Some ds)) ->
  (exists ds, last (x :: xs) SNone = SEnd (Some ds)) -> exists ds, last xs SNone = SEnd (Some ds).
Proof. intros Hx [ds Hd]. destruct xs as [|y xs]; [destruct (Hx ds Hd)|exists ds; exact Hd]. Qed.

Lemma c01a_run_block L C ast :
  NoDup L -> NoDup C ->
  forall cs s1 s' outs,
    In (sudo s1) L ->
    (forall c, In c cs -> incl (tx_accounts c) L /\ incl (tx_channels c) C) ->
    run s1 (map OpExec cs ++ [OpEnd]) = (s', outs) ->
    (exists ds, last outs SNone = SEnd (Some ds)) ->
    supply0 L C s' ast + burned_run (map OpExec cs ++ [OpEnd]) outs ast = supply L C s1 ast.
Proof.
  intros HndL HndC. induction cs as [|c cs IH]; intros s1 s' outs Hsudo Hcs Hrun Hlast.
  - cbn [map app run step] in Hrun.
    destruct (end_block s1) as [[s2 ds]|e] eqn:He.
    + inversion Hrun; subst; clear Hrun. cbn [burned_run map app].
      destruct (end_block_conserves _ _ _ L C ast HndL Hsudo He) as [E _]. lia.
    + inversion Hrun; subst; clear Hrun. destruct Hlast as [ds Hd]. cbn in Hd. discriminate.
  - cbn [map app run step] in Hrun.
    destruct (exec_tx s1 c) as [s2 o] eqn:Hx.
    destruct (run s2 (map OpExec cs ++ [OpEnd])) as [s3 xs] eqn:Hr.
    inversion Hrun; subst; clear Hrun.
    apply c01a_last_tail in Hlast; [|discriminate].
    assert (Hcs' : forall c0, In c0 cs -> incl (tx_accounts c0) L /\ incl (tx_channels c0) C)
      by (intros c0 Hin; apply Hcs; right; exact Hin).
    destruct (Hcs c (or_introl eq_refl)) as [HL HC].
    destruct o as [evs|e].
    + destruct (c01a_tx _ _ _ _ L C ast HndL HndC HL HC Hx) as [E S].
      pose proof (IH _ _ _ (S Hsudo) Hcs' Hr Hlast) as E'.
      cbn [burned_run map app]. lia.
    + apply exec_tx_err in Hx. destruct Hx as [-> _].
      pose proof (IH _ _ _ Hsudo Hcs' Hr Hlast) as E'.
      cbn [burned_run map app]. exact E'.
Qed.

Lemma c01a_begin_block s bbh h L C ast :
  supply L C (begin_block s bbh h) ast = supply0 L C s ast.
Proof.
  unfold supply, supply0, begin_block. cbn [bal escrow block_fees set_round bf_total]. lia.
Qed.

Lemma block_conserves : stmt_block_conserves.
Proof.
  intros s bbh h cs s' outs L C ast HndL HndC Hsudo Hcs Hrun Hlast.
  cbn [run step] in Hrun.
  destruct (run (begin_block s bbh h) (map OpExec cs ++ [OpEnd])) as [s2 xs] eqn:Hr.
  inversion Hrun; subst; clear Hrun.
  apply c01a_last_tail in Hlast; [|discriminate].
  pose proof (c01a_run_block L C ast HndL HndC cs (begin_block s bbh h) _ _ Hsudo Hcs Hr Hlast) as E.
  rewrite c01a_begin_block in E. cbn [burned_run]. exact E.
Qed.

Ltac c01a_nodup :=
  repeat (apply NoDup_cons; [cbn; intuition discriminate|]); apply NoDup_nil.
Ltac c01a_incl :=
  let x := fresh "x" in let Hx := fresh "Hx" in
  intros x Hx; cbn in Hx; cbn; intuition.

(** A non-source ICS-20 withdrawal of 30 units of asset 1 by account 4: hypotheses hold, the
    action executes, 30 units are burned. *)
Example action_conserves_nonvacuous :
  let ca := (AIcs20 30 1 false 0 0 None MemoBad, CapNone) in
  NoDup sample_L /\ NoDup sample_C /\ In 4 sample_L /\
  incl (action_accounts (fst ca)) sample_L /\ incl (action_channels (fst ca)) sample_C /\
  match pay_fees_and_execute sample_state 4 103 0 ca with
  | Ok (s', evs) =>
    length evs = 1%nat /\
    supply sample_L sample_C s' 1 = 470 /\ burned_action (fst ca) 1 = 30 /\
    supply sample_L sample_C sample_state 1 = 500 /\
    supply sample_L sample_C s' 0 = 8000000 /\ bf_total (block_fees s') 0 = 3
  | Err _ => False
  end.
Proof.
  cbv zeta. split; [c01a_nodup|]. split; [c01a_nodup|]. split; [cbn; intuition|].
  split; [c01a_incl|]. split; [c01a_incl|].
  vm_compute. repeat split; reflexivity.
Qed.

(** sample_tx1 (transfer + lock + rollup data) executes; its fees sit in the block fees. *)
Example tx_conserves_nonvacuous :
  let c := checked sample_state sample_tx1 in
  NoDup sample_L /\ NoDup sample_C /\
  incl (tx_accounts c) sample_L /\ incl (tx_channels c) sample_C /\
  match exec_tx sample_state c with
  | (s', OutOk evs) =>
    length evs = 3%nat /\ burned_tx c 0 = 0 /\
    supply sample_L sample_C s' 0 = 8000000 /\
    supply sample_L sample_C sample_state 0 = 8000000 /\
    supply0 sample_L sample_C s' 0 = 8000000 - (12 + (5 + 2 * 30) + (32 + 40)) /\
    bal s' 6 0 = 1000250
  | _ => False
  end.
Proof.
  cbv zeta. split; [c01a_nodup|]. split; [c01a_nodup|].
  split; [vm_compute; intuition|]. split; [vm_compute; intuition|].
  vm_compute. repeat split; reflexivity.
Qed.

(** Ending the block opened by sample_tx1 credits the logged fees to the sudo address 0. *)
Example end_block_conserves_nonvacuous :
  let s := fst (exec_tx (begin_block sample_state 3 6) (checked sample_state sample_tx1)) in
  NoDup sample_L /\ In (sudo s) sample_L /\
  match end_block s with
  | Ok (s', ds) =>
    length ds = 1%nat /\ block_fees s' = [] /\ bf_total (block_fees s) 0 = 149 /\
    supply0 sample_L sample_C s' 0 = 8000000 /\ supply sample_L sample_C s 0 = 8000000 /\
    bal s' 0 0 = 1000149
  | Err _ => False
  end.
Proof.
  cbv zeta. split; [c01a_nodup|]. split; [vm_compute; intuition|].
  vm_compute. repeat split; reflexivity.
Qed.

(** The sample block: three transactions execute, one fails, the block ends; 30 units of asset 1
    are burned and asset 0 is conserved. *)
Example block_conserves_nonvacuous :
  let cs := [checked sample_state sample_tx1; checked sample_state sample_tx2;
             checked sample_state sample_tx_fail; checked sample_state sample_tx3] in
  let ops := OpBegin 3 6 :: map OpExec cs ++ [OpEnd] in
  ops = sample_ops /\
  NoDup sample_L /\ NoDup sample_C /\ In (sudo sample_state) sample_L /\
  (forall c, In c cs -> incl (tx_accounts c) sample_L /\ incl (tx_channels c) sample_C) /\
  (exists ds, last (snd (run sample_state ops)) SNone = SEnd (Some ds)) /\
  supply0 sample_L sample_C (fst (run sample_state ops)) 1 = 470 /\
  burned_run ops (snd (run sample_state ops)) 1 = 30 /\
  supply0 sample_L sample_C sample_state 1 = 500 /\
  supply0 sample_L sample_C (fst (run sample_state ops)) 0 = 8000000 /\
  burned_run ops (snd (run sample_state ops)) 0 = 0.
Proof.
  cbv zeta. split; [reflexivity|]. split; [c01a_nodup|]. split; [c01a_nodup|].
  split; [vm_compute; intuition|].
  split.
  { intros c Hc. cbn [In] in Hc.
    repeat (destruct Hc as [<-|Hc]; [split; vm_compute; intuition|]). destruct Hc. }
  split; [eexists; vm_compute; reflexivity|].
  vm_compute. repeat split; reflexivity.
Qed.
