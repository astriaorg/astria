(** Who writes what: each successful operation of the ledger inverted once, with the state it
    leaves written as a term over the state it started from.  [exec_state] is the table for the
    actions; the property files are projections of it. *)
From Astria Require Import Base.Bounded Ledger.LedgerModel Ledger.LedgerSpec Ledger.LedgerLemmas.

Definition debit (s : state) (x : addr) (a : asset) (amt : N) : state :=
  set_bal s (upd2 (bal s) x a (bal s x a - amt)).
Definition credit (s : state) (x : addr) (a : asset) (amt : N) : state :=
  set_bal s (upd2 (bal s) x a (bal s x a + amt)).

Lemma increase_balance_ok s x a amt s' :
  increase_balance s x a amt = Ok s' -> s' = credit s x a amt /\ bal s x a + amt <= U128_MAX.
Proof.
  unfold increase_balance. destruct (checked_add U128_MAX (bal s x a) amt) eqn:E; [|discriminate].
  apply checked_add_Some in E. destruct E as [-> Hle]. intros [= <-]. auto.
Qed.

Lemma decrease_balance_ok s x a amt s' :
  decrease_balance s x a amt = Ok s' -> s' = debit s x a amt /\ amt <= bal s x a.
Proof.
  unfold decrease_balance. destruct (checked_sub (bal s x a) amt) eqn:E; [|discriminate].
  apply checked_sub_Some in E. destruct E as [-> Hle]. intros [= <-]. auto.
Qed.

Lemma bal_credit s x a amt y b :
  bal (credit s x a amt) y b = bal s y b + (if (y =? x) && (b =? a) then amt else 0).
Proof.
  cbn. unfold upd2. destruct (N.eqb_spec y x) as [->|], (N.eqb_spec b a) as [->|]; cbn [andb]; lia.
Qed.

Lemma bal_debit s x a amt y b :
  amt <= bal s x a ->
  bal (debit s x a amt) y b + (if (y =? x) && (b =? a) then amt else 0) = bal s y b.
Proof.
  intros Hle. cbn. unfold upd2.
  destruct (N.eqb_spec y x) as [->|], (N.eqb_spec b a) as [->|]; cbn [andb]; lia.
Qed.

Lemma debit_lowers_only s x a amt z b : bal (debit s x a amt) z b < bal s z b -> z = x /\ b = a.
Proof.
  cbn. unfold upd2. destruct (N.eqb_spec z x), (N.eqb_spec b a); cbn [andb]; auto; lia.
Qed.

Definition move (s : state) (x y : addr) (a : asset) (amt : N) : state :=
  credit (debit s x a amt) y a amt.
Definition can_move (s : state) (x y : addr) (a : asset) (amt : N) : Prop :=
  amt <= bal s x a /\ bal (debit s x a amt) y a + amt <= U128_MAX.

Lemma move_ok s x y a amt s1 s2 :
  decrease_balance s x a amt = Ok s1 -> increase_balance s1 y a amt = Ok s2 ->
  can_move s x y a amt /\ s2 = move s x y a amt.
Proof.
  intros H1 H2. apply decrease_balance_ok in H1. destruct H1 as [-> Hle].
  apply increase_balance_ok in H2. destruct H2 as [-> Hle2]. repeat split; assumption.
Qed.

Lemma move_bind s x y a amt (k : state -> result state) s' :
  (do s1 <- decrease_balance s x a amt; do s2 <- increase_balance s1 y a amt; k s2) = Ok s' ->
  can_move s x y a amt /\ k (move s x y a amt) = Ok s'.
Proof.
  intros H. apply bind_ok in H. destruct H as [s1 [H1 H]]. apply bind_ok in H.
  destruct H as [s2 [H2 H]]. destruct (move_ok _ _ _ _ _ _ _ H1 H2) as [Hc <-]. auto.
Qed.

Lemma bal_move s x y a amt z :
  can_move s x y a amt ->
  bal (move s x y a amt) z a + (if z =? x then amt else 0)
  = bal s z a + (if z =? y then amt else 0).
Proof.
  intros [Hle _]. unfold move. rewrite bal_credit.
  pose proof (bal_debit s x a amt z a Hle) as E. rewrite N.eqb_refl, !Bool.andb_true_r in *. lia.
Qed.

Lemma move_lowers_only s x y a amt z b :
  bal (move s x y a amt) z b < bal s z b -> z = x /\ b = a.
Proof.
  unfold move. rewrite bal_credit. cbn. unfold upd2.
  destruct (N.eqb_spec z x), (N.eqb_spec b a); cbn [andb]; auto; lia.
Qed.

Lemma pay_fee_ok s signer k fa var pos s' evs :
  pay_fee s signer k fa var pos = Ok (s', evs) ->
  exists base mult, fees s k = Some (base, mult) /\
    match fa with
    | None => s' = s /\ evs = []
    | Some a =>
      let t := fee_amount base mult var in
      mem_asset a (fee_assets s) = true /\ bf_total (block_fees s) a + t <= U128_MAX /\
      t <= bal s signer a /\
      s' = debit (set_block_fees s ((a, t) :: block_fees s)) signer a t /\
      evs = [ {| fe_pos := pos; fe_kind := k; fe_asset := a; fe_amount := t |} ]
    end.
Proof.
  unfold pay_fee. destruct (fees s k) as [[base mult]|]; [|discriminate].
  intros H. exists base, mult. split; [reflexivity|]. destruct fa as [a|].
  - apply check_ok in H. destruct H as [Hm H]. cbv zeta in *.
    destruct (checked_add _ _ _) eqn:E; [|discriminate]. apply checked_add_Some in E.
    apply bind_ok in H. destruct H as [s2 [Hd [= <- <-]]].
    apply decrease_balance_ok in Hd. destruct Hd as [-> Hle]. tauto.
  - injection H as <- <-. auto.
Qed.

(* [f], [l] existential: the free action returns [s] itself, not a record *)
Lemma pay_fee_shape s signer k fa var pos s' evs :
  pay_fee s signer k fa var pos = Ok (s', evs) ->
  exists f l, s' = set_bal (set_block_fees s l) f.
Proof.
  intros H. apply pay_fee_ok in H. destruct H as (base & mult & _ & H). destruct fa as [a|].
  - destruct H as (_ & _ & _ & -> & _). eexists _, _. reflexivity.
  - destruct H as [-> _]. exists (bal s), (block_fees s). destruct s; reflexivity.
Qed.

Definition cap_asset (cap : capture) : asset :=
  match cap with CapUnlock a | CapBTransfer a _ => a | _ => 0 end.
Definition cap_rollup (cap : capture) : rollup :=
  match cap with CapLock r | CapBTransfer _ r => r | _ => 0 end.

(* source, destination, asset, amount *)
Definition act_move (signer : addr) (a : action) (cap : capture)
  : option (addr * addr * asset * N) :=
  match a with
  | ATransfer to amt ast _ | ALock to amt ast _ _ _ _ _ => Some (signer, to, ast, amt)
  | AUnlock to amt _ b _ _ _ _ | ABTransfer to amt _ _ _ b _ _ _ => Some (b, to, cap_asset cap, amt)
  | _ => None
  end.

Definition ics_from (signer : addr) (ob : option addr) : addr :=
  match ob with Some b => b | None => signer end.

(* only its [bal] and [escrow] are used *)
Definition act_value (s : state) (signer : addr) (a : action) (cap : capture) : state :=
  match act_move signer a cap, a with
  | Some (x, y, ast, amt), _ => move s x y ast amt
  | None, AIcs20 amt ast is_source c _ ob _ =>
    set_escrow (debit s (ics_from signer ob) ast amt)
               (if is_source then upd2 (escrow s) c ast (escrow s c ast + amt) else escrow s)
  | None, _ => s
  end.

Lemma act_value_move s signer a cap x y ast amt :
  act_move signer a cap = Some (x, y, ast, amt) -> act_value s signer a cap = move s x y ast amt.
Proof. unfold act_value. intros ->. reflexivity. Qed.

(* bridge account, event id, rollup block *)
Definition act_mark (a : action) : option (addr * evid * N) :=
  match a with
  | AUnlock _ _ _ b _ blk ev _ | ABTransfer _ _ _ _ _ b blk ev _
  | AIcs20 _ _ _ _ _ (Some b) (MemoRollup blk ev _ _) => Some (b, ev, blk)
  | _ => None
  end.

Definition act_deposit (tx : txid) (idx : N) (a : action) (cap : capture) : option deposit :=
  match a with
  | ALock to amt ast _ _ _ dest _ =>
    Some {| d_bridge := to; d_rollup := cap_rollup cap; d_asset := ast; d_amount := amt;
            d_dest := dest; d_tx := tx; d_idx := idx |}
  | ABTransfer to amt _ dest _ _ _ _ _ =>
    Some {| d_bridge := to; d_rollup := cap_rollup cap; d_asset := cap_asset cap; d_amount := amt;
            d_dest := dest; d_tx := tx; d_idx := idx |}
  | _ => None
  end.

Definition act_bridge (s : state) (signer : addr) (a : action) : addr -> option bridge_rec :=
  match a with
  | AInitBridge r ast _ sd wd =>
    upd1 (bridge s) signer
      (Some {| br_rollup := r; br_asset := ast;
               br_sudo := Some (match sd with Some x => x | None => signer end);
               br_withdrawer := Some (match wd with Some x => x | None => signer end);
               br_disabled := None; br_lasttx := None |})
  | ABSudo b new_sudo new_wd _ disable =>
    match bridge s b with
    | Some br =>
      upd1 (bridge s) b
        (Some {| br_rollup := br_rollup br; br_asset := br_asset br;
                 br_sudo := match new_sudo with Some x => Some x | None => br_sudo br end;
                 br_withdrawer := match new_wd with Some x => Some x | None => br_withdrawer br end;
                 br_disabled := if blackburn s then Some disable else br_disabled br;
                 br_lasttx := br_lasttx br |})
    | None => bridge s
    end
  | _ => bridge s
  end.

(** Meant where [execute_action] succeeds: a capture of the wrong shape, which [cap_asset] and
    [cap_rollup] read as 0, does not execute. *)
Definition exec_state (s : state) (signer : addr) (tx : txid) (idx : N) (a : action)
  (cap : capture) : state :=
  {| bal := bal (act_value s signer a cap);
     nonce := nonce s;
     escrow := escrow (act_value s signer a cap);
     bridge := act_bridge s signer a;
     wevent := match act_mark a with
               | Some (b, ev, blk) => wevent (put_wevent s b ev blk)
               | None => wevent s
               end;
     sudo := match a with ASudoChange to => to | _ => sudo s end;
     ibc_sudo := match a with AIbcSudo to => to | _ => ibc_sudo s end;
     relayer := match a with ARelayer add x => upd1 (relayer s) x add | _ => relayer s end;
     fees := match a with
             | AFeeChange k base mult => updk (fees s) k (Some (base, mult))
             | _ => fees s
             end;
     fee_assets := match a with
                   | AFeeAsset true ast => ast :: fee_assets s
                   | AFeeAsset false ast => filter (fun x => negb (x =? ast)) (fee_assets s)
                   | _ => fee_assets s
                   end;
     known_assets := known_assets s;
     channels := channels s;
     validators := match a with
                   | AValUpdate key power =>
                     upd1 (validators s) key (if power =? 0 then None else Some power)
                   | _ => validators s
                   end;
     valcount := match a with
                 | AValUpdate key power =>
                   if power =? 0 then valcount s - 1
                   else match validators s key with
                        | Some _ => valcount s
                        | None => saturating_add U64_MAX (valcount s) 1
                        end
                 | _ => valcount s
                 end;
     block_fees := block_fees s;
     deposits := match act_deposit tx idx a cap with
                 | Some d => deposits s ++ [d]
                 | None => deposits s
                 end;
     blackburn := blackburn s;
     height := height s |}.

Definition exec_pre (s : state) (signer : addr) (a : action) (cap : capture) : Prop :=
  match act_move signer a cap with
  | Some (x, y, ast, amt) => can_move s x y ast amt
  | None => True
  end /\
  match a with
  | AIcs20 amt ast is_source c _ ob _ =>
    channels s c = true /\ amt <= bal s (ics_from signer ob) ast /\
    (is_source = true -> escrow s c ast + amt <= U128_MAX)
  | ABSudo b _ _ _ _ => bridge s b <> None
  | _ => True
  end.

Lemma execute_action_inv s signer tx idx a cap s' :
  execute_action s signer tx idx (a, cap) = Ok s' ->
  mutable_checks s signer a = Ok tt /\ exec_pre s signer a cap /\
  s' = exec_state s signer tx idx a cap.
Proof.
  unfold execute_action, exec_pre. intros H. apply bind_ok in H. destruct H as [[] [Hm H]].
  split; [exact Hm|]. clear Hm.
  (* InitBridge and the privileged writes but FeeAsset and ValUpdate return at once *)
  destruct a; cbn [act_move]; try (injection H as <-; repeat split; fail).
  - (* Transfer *)
    apply bind_ok in H. destruct H as [s1 [H1 H2]].
    destruct (move_ok _ _ _ _ _ _ _ H1 H2) as [Hc ->]. exact (conj (conj Hc I) eq_refl).
  - (* Lock *)
    destruct cap; try discriminate H.
    apply move_bind in H. destruct H as [Hc [= <-]]. exact (conj (conj Hc I) eq_refl).
  - (* Unlock *)
    destruct cap; try discriminate H.
    apply move_bind in H. destruct H as [Hc [= <-]]. exact (conj (conj Hc I) eq_refl).
  - (* BTransfer *)
    destruct cap; try discriminate H.
    apply move_bind in H. destruct H as [Hc [= <-]]. exact (conj (conj Hc I) eq_refl).
  - (* BSudo *)
    destruct (bridge s b) as [br|] eqn:Eb; [|discriminate]. injection H as <-.
    split; [split; [exact I|discriminate]|]. unfold exec_state, act_bridge. rewrite Eb. reflexivity.
  - (* Ics20: the code marks the event first, and not always; the table always writes [wevent]:
       [s = set_wevent s (wevent s)] once [s] is a record *)
    cbv zeta in H. fold (ics_from signer b) in H.
    assert (E : match b, memo with
                | Some b0, MemoRollup blk ev _ _ => put_wevent s b0 ev blk
                | _, _ => s
                end = set_wevent s (wevent (exec_state s signer tx idx
                                              (AIcs20 amt a is_source c fa b memo) cap)))
      by (destruct b; [destruct memo|]; try reflexivity; destruct s; reflexivity).
    rewrite E in H. clear E.
    apply check_ok in H. destruct H as [Hc H]. apply bind_ok in H. destruct H as [s2 [Hd H]].
    apply decrease_balance_ok in Hd. destruct Hd as [-> Hle].
    split; [split; [exact I|split; [exact Hc|split; [exact Hle|]]]|].
    + intros ->. destruct (checked_add _ _ _) eqn:Ev; [|discriminate H].
      apply checked_add_Some in Ev. apply Ev.
    + destruct is_source;
        [destruct (checked_add _ _ _) eqn:Ev; [|discriminate H];
         apply checked_add_Some in Ev; destruct Ev as [-> _]|];
        injection H as <-; reflexivity.
  - (* Rollup *) injection H as <-. destruct s. repeat split.
  - (* FeeAsset *) destruct add; injection H as <-; repeat split.
  - (* ValUpdate *)
    destruct (power =? 0) eqn:E; injection H as <-; unfold exec_state; rewrite E; repeat split.
  - (* IbcRelayFailing *) discriminate H.
Qed.

Lemma unlock_mutable_ok pure s signer to b ev :
  unlock_mutable pure s signer to b ev = Ok tt ->
  withdrawer_of s b = Some signer /\ wevent s b ev = None.
Proof.
  unfold unlock_mutable. intros H. apply check_ok in H. destruct H as [_ H].
  destruct (withdrawer_of s b) as [w|]; [|discriminate H].
  apply check_ok in H. destruct H as [Hw H]. apply N.eqb_eq in Hw. subst w.
  destruct (wevent s b ev); [discriminate H|auto].
Qed.

(** The actions with a mark are those that debit an account other than the signer. *)
Lemma mark_checked s signer a b ev blk :
  mutable_checks s signer a = Ok tt -> act_mark a = Some (b, ev, blk) ->
  withdrawer_of s b = Some signer /\ wevent s b ev = None.
Proof.
  destruct a; try discriminate; cbn [act_mark mutable_checks].
  - intros H [= <- <- <-]. exact (unlock_mutable_ok _ _ _ _ _ _ H).
  - intros H [= <- <- <-]. apply bind_ok in H. destruct H as [[] [H _]].
    exact (unlock_mutable_ok _ _ _ _ _ _ H).
  - destruct b0 as [b0|]; [destruct memo|]; try discriminate. intros H [= <- <- <-].
    destruct (withdrawer_of s b0) as [w|]; [|discriminate H].
    apply check_ok in H. destruct H as [Hw H]. apply N.eqb_eq in Hw. subst w.
    destruct (wevent s b0 ev0); [discriminate H|auto].
Qed.

Lemma act_move_source signer a cap x y ast amt :
  act_move signer a cap = Some (x, y, ast, amt) ->
  x = signer \/ exists ev blk, act_mark a = Some (x, ev, blk).
Proof. destruct a; intros [= <- _ _ _]; cbn [act_mark]; eauto. Qed.

Lemma execute_action_frame s signer tx idx ca s' :
  execute_action s signer tx idx ca = Ok s' ->
  nonce s' = nonce s /\ block_fees s' = block_fees s /\ blackburn s' = blackburn s /\
  height s' = height s /\ known_assets s' = known_assets s /\ channels s' = channels s.
Proof.
  destruct ca as [a cap]. intros H. apply execute_action_inv in H. destruct H as (_ & _ & ->).
  repeat split.
Qed.

(** Also for [ARollup], whose [execute_action] is the identity. *)
Lemma pay_fees_and_execute_inv s signer tx idx ca s' evs :
  pay_fees_and_execute s signer tx idx ca = Ok (s', evs) ->
  exists s1,
    pay_fee s signer (action_kind (fst ca)) (action_fee_asset (fst ca))
            (action_variable (fst ca)) idx = Ok (s1, evs) /\
    execute_action s1 signer tx idx ca = Ok s'.
Proof.
  unfold pay_fees_and_execute. intros H.
  apply bind_ok in H. destruct H as [[s1 evs1] [Hp H]]. exists s1.
  destruct ca as [a cap]. cbn [fst] in *.
  destruct a; cbv beta iota in H;
    try (apply bind_ok in H; destruct H as [s2 [He [= <- <-]]]; split; assumption).
  - injection H as <- <-. split; [assumption|reflexivity].
  - destruct (execute_action s1 signer tx idx (AIbcRelayFailing k, cap)) as [s2|e] eqn:E;
      [|discriminate H].
    injection H as <- <-. split; [assumption|reflexivity].
Qed.

Lemma exec_actions_ind signer tx
  (P : N -> state -> list checked_action -> state -> list fee_event -> Prop) :
  (forall idx s, P idx s [] s []) ->
  (forall idx s ca l s0 s1 e1 s2 e2,
      pay_fee s signer (action_kind (fst ca)) (action_fee_asset (fst ca))
              (action_variable (fst ca)) idx = Ok (s0, e1) ->
      execute_action s0 signer tx idx ca = Ok s1 ->
      P (idx + 1) s1 l s2 e2 -> P idx s (ca :: l) s2 (e1 ++ e2)) ->
  forall l idx s s' evs, exec_actions s signer tx idx l = Ok (s', evs) -> P idx s l s' evs.
Proof.
  intros Hnil Hcons. induction l as [|ca l IH]; intros idx s s' evs H; cbn [exec_actions] in H.
  - injection H as <- <-. apply Hnil.
  - apply bind_ok in H. destruct H as [[s1 e1] [H1 H]].
    apply bind_ok in H. destruct H as [[s2 e2] [H2 [= <- <-]]].
    apply pay_fees_and_execute_inv in H1. destruct H1 as [s0 [Hp He]].
    eapply Hcons; eauto.
Qed.

Lemma exec_actions_lift signer tx (R : state -> state -> Prop) :
  (forall s, R s s) -> (forall s1 s2 s3, R s1 s2 -> R s2 s3 -> R s1 s3) ->
  (forall s k fa var pos s' evs, pay_fee s signer k fa var pos = Ok (s', evs) -> R s s') ->
  (forall s idx ca s', execute_action s signer tx idx ca = Ok s' -> R s s') ->
  forall l idx s s' evs, exec_actions s signer tx idx l = Ok (s', evs) -> R s s'.
Proof.
  intros Hrefl Htrans Hfee Hexec.
  apply (exec_actions_ind signer tx (fun _ s _ s' _ => R s s')).
  - intros _ s. apply Hrefl.
  - intros idx s ca l s0 s1 e1 s2 e2 Hp He IH.
    eapply Htrans; [eapply Hfee, Hp|]. eapply Htrans; [eapply Hexec, He|exact IH].
Qed.

(* [f] existential: a signer that is no bridge account gets [s] back, which is
   [set_bridge s (bridge s)] only up to eta *)
Lemma put_lasttx_shape s x t :
  exists f, put_lasttx s x t = set_bridge s f /\
            forall y, bridge_priv (f y) = bridge_priv (bridge s y).
Proof.
  unfold put_lasttx. destruct (bridge s x) as [br|] eqn:E.
  - eexists. split; [reflexivity|]. intros y. unfold upd1.
    destruct (N.eqb_spec y x) as [->|]; [rewrite E|]; reflexivity.
  - exists (bridge s). split; [destruct s|]; reflexivity.
Qed.

Definition tx_start (s : state) (c : checked_tx) : state :=
  let s1 := put_lasttx s (ct_signer c) (ct_id c) in
  set_nonce s1 (upd1 (nonce s1) (ct_signer c) (nonce s (ct_signer c) + 1)).

Lemma tx_start_shape s c :
  exists f, tx_start s c
            = set_nonce (set_bridge s f)
                        (upd1 (nonce s) (ct_signer c) (nonce s (ct_signer c) + 1)) /\
            forall y, bridge_priv (f y) = bridge_priv (bridge s y).
Proof.
  unfold tx_start. destruct (put_lasttx_shape s (ct_signer c) (ct_id c)) as [f [-> Hf]].
  exists f. split; [reflexivity|exact Hf].
Qed.

Lemma exec_tx_ok s c s' evs :
  exec_tx s c = (s', OutOk evs) ->
  nonce s (ct_signer c) = ct_nonce c /\ nonce s (ct_signer c) + 1 <= U32_MAX /\
  exec_actions (tx_start s c) (ct_signer c) (ct_id c) 0 (ct_actions c) = Ok (s', evs).
Proof.
  unfold exec_tx. destruct (exec_tx_inner s c) as [[s1 e1]|e] eqn:E; intros [= <- <-].
  unfold exec_tx_inner in E. apply check_ok in E. destruct E as [Hn E]. apply N.eqb_eq in Hn.
  cbv zeta in E. destruct (checked_add _ _ _) as [n1|] eqn:En; [|discriminate].
  apply checked_add_Some in En. destruct En as [-> Hle]. auto.
Qed.

Lemma exec_tx_err s c s' e :
  exec_tx s c = (s', OutErr e) ->
  s' = s /\
  (e = ENonce \/ exec_actions (tx_start s c) (ct_signer c) (ct_id c) 0 (ct_actions c) = Err e).
Proof.
  unfold exec_tx. destruct (exec_tx_inner s c) as [[s1 e1]|e0] eqn:E; intros [= <- <-].
  split; [reflexivity|]. unfold exec_tx_inner in E.
  destruct (_ =? _); [|injection E as <-; auto].
  cbv zeta in E. destruct (checked_add _ _ _) as [n1|] eqn:En; [|injection E as <-; auto].
  apply checked_add_Some in En. destruct En as [-> _]. auto.
Qed.

Lemma credit_fees_ok x l : forall s s',
  credit_fees s x l = Ok s' ->
  (exists f, s' = set_bal s f) /\
  forall y a, bal s' y a = bal s y a + (if y =? x then bf_total l a else 0).
Proof.
  induction l as [|[a' v] l IH]; intros s s' H; cbn [credit_fees] in H.
  - injection H as <-. split; [exists (bal s); destruct s; reflexivity|].
    intros y a. destruct (y =? x); cbn [bf_total]; lia.
  - apply bind_ok in H. destruct H as [s1 [Hi H]].
    apply increase_balance_ok in Hi. destruct Hi as [-> _].
    destruct (IH _ _ H) as [[f ->] Hb]. split; [exists f; reflexivity|].
    intros y a. rewrite Hb, bal_credit. cbn [bf_total].
    destruct (y =? x), (N.eqb_spec a a') as [->|]; cbn [andb];
      [rewrite N.eqb_refl|destruct (N.eqb_spec a' a); [congruence|]| |]; lia.
Qed.

Lemma end_block_ok s s' ds :
  end_block s = Ok (s', ds) ->
  exists s1, credit_fees s (sudo s) (block_fees s) = Ok s1 /\
             s' = set_deposits (set_block_fees s1 []) [] /\ ds = deposits s.
Proof.
  unfold end_block. intros H. apply bind_ok in H. destruct H as [s1 [Hc [= <- <-]]]. eauto.
Qed.

Lemma run_cons s o r s' outs :
  run s (o :: r) = (s', outs) ->
  exists s1 x xs, step s o = (s1, x) /\ run s1 r = (s', xs) /\ outs = x :: xs.
Proof.
  cbn [run]. destruct (step s o) as [s1 x]. destruct (run s1 r) as [s2 xs] eqn:Er.
  intros [= <- <-]. exists s1, x, xs. auto.
Qed.

Lemma step_shape s o :
  (exists c, o = OpExec c) \/
  (nonce (fst (step s o)) = nonce s /\ bridge (fst (step s o)) = bridge s /\
   wevent (fst (step s o)) = wevent s).
Proof.
  destruct o as [bbh h|c| |y a v t|a t|c a v t|c]; [right|left; eauto|right..]; cbn [step].
  - auto.
  - destruct (end_block s) as [[s1 ds]|e] eqn:E; [|auto].
    apply end_block_ok in E. destruct E as (s0 & Hc & -> & _).
    apply credit_fees_ok in Hc. destruct Hc as [[f ->] _]. auto.
  - unfold op_mint. destruct t; auto.
  - unfold op_allowfee. destruct t, (mem_asset a (fee_assets s)); auto.
  - unfold op_escrow. destruct t; auto.
  - auto.
Qed.

Lemma run_lift (R : state -> state -> Prop) :
  (forall s, R s s) -> (forall s1 s2 s3, R s1 s2 -> R s2 s3 -> R s1 s3) ->
  (forall s o, R s (fst (step s o))) ->
  forall ops s s' outs, run s ops = (s', outs) -> R s s'.
Proof.
  intros Hrefl Htrans Hstep. induction ops as [|o r IH]; intros s s' outs H.
  - injection H as <- _. apply Hrefl.
  - apply run_cons in H. destruct H as (s1 & x & xs & Hs & Hr & _).
    eapply Htrans; [|eapply IH; eassumption].
    specialize (Hstep s o). rewrite Hs in Hstep. exact Hstep.
Qed.
