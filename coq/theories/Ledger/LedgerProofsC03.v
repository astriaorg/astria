(** C03: nonce discipline (exact nonce needed, bumped by one, failed tx is the identity,
    monotone nonces, no replay). *)
From Astria Require Import Base.Bounded Ledger.LedgerModel Ledger.LedgerSpec Ledger.LedgerLemmas Ledger.LedgerEffect Ledger.LedgerSample.

Definition c03_frame (s s' : state) : Prop := nonce s' = nonce s /\ blackburn s' = blackburn s.

Lemma c03_pay_fee_frame s signer k fa var pos s' evs :
  pay_fee s signer k fa var pos = Ok (s', evs) -> c03_frame s s'.
Proof. intros H. apply pay_fee_shape in H. destruct H as (f & l & ->). split; reflexivity. Qed.

Lemma c03_execute_frame s signer tx idx ca s' :
  execute_action s signer tx idx ca = Ok s' -> c03_frame s s'.
Proof. intros H. apply execute_action_frame in H. unfold c03_frame. tauto. Qed.

Lemma c03_frame_trans s1 s2 s3 : c03_frame s1 s2 -> c03_frame s2 s3 -> c03_frame s1 s3.
Proof. unfold c03_frame. intros [E1 E2] [E3 E4]. split; congruence. Qed.

Lemma c03_exec_actions_frame signer tx l idx s s' evs :
  exec_actions s signer tx idx l = Ok (s', evs) -> c03_frame s s'.
Proof.
  apply (exec_actions_lift signer tx c03_frame).
  - split; reflexivity.
  - exact c03_frame_trans.
  - exact (fun s0 => c03_pay_fee_frame s0 signer).
  - exact (fun s0 => c03_execute_frame s0 signer tx).
Qed.

Lemma c03_exec_ok s c s' evs :
  exec_tx s c = (s', OutOk evs) ->
  nonce s (ct_signer c) = ct_nonce c /\
  nonce s (ct_signer c) + 1 <= U32_MAX /\
  nonce s' = upd1 (nonce s) (ct_signer c) (nonce s (ct_signer c) + 1).
Proof.
  intros H. apply exec_tx_ok in H. destruct H as (Hn & Hle & H).
  apply c03_exec_actions_frame in H. destruct H as [-> _].
  destruct (tx_start_shape s c) as (f & -> & _). auto.
Qed.

Lemma exec_needs_nonce : stmt_exec_needs_nonce.
Proof. intros s c s' evs H. apply c03_exec_ok in H. tauto. Qed.

Lemma exec_bumps_nonce_by_one : stmt_exec_bumps_nonce_by_one.
Proof.
  intros s c s' evs H. apply c03_exec_ok in H. destruct H as [_ [Hle ->]].
  rewrite upd1_same. repeat split; [exact Hle|].
  intros x Hx. apply upd1_other. exact Hx.
Qed.

Lemma failed_tx_is_identity : stmt_failed_tx_is_identity.
Proof. intros s c s' e H. apply exec_tx_err in H. tauto. Qed.

Lemma c03_step_monotone s o x : nonce s x <= nonce (fst (step s o)) x.
Proof.
  destruct (step_shape s o) as [[c ->]|[E _]]; [|rewrite E; lia]. cbn [step].
  destruct (exec_tx s c) as [s1 [evs|e]] eqn:E; cbn [fst].
  - apply c03_exec_ok in E. destruct E as [_ [_ ->]].
    unfold upd1. destruct (N.eqb_spec x (ct_signer c)); [subst; lia|lia].
  - apply failed_tx_is_identity in E. subst. lia.
Qed.

Lemma nonce_monotone : stmt_nonce_monotone.
Proof.
  intros s ops s' outs x. revert ops s s' outs.
  apply (run_lift (fun s s' => nonce s x <= nonce s' x)).
  - intros; lia.
  - intros; lia.
  - intros s o. apply c03_step_monotone.
Qed.

Lemma c03_step_exec_ok s c s1 evs :
  step s (OpExec c) = (s1, STx (OutOk evs)) -> exec_tx s c = (s1, OutOk evs).
Proof.
  cbn [step]. destruct (exec_tx s c) as [s2 out]. intros H; inversion H; reflexivity.
Qed.

(** A transaction that executes at position [j] needs a nonce no smaller than the present one. *)
Lemma c03_run_before ops : forall s s' outs j c2 e2,
  run s ops = (s', outs) ->
  nth_error ops j = Some (OpExec c2) ->
  nth_error outs j = Some (STx (OutOk e2)) ->
  nonce s (ct_signer c2) <= ct_nonce c2.
Proof.
  induction ops as [|o r IH]; intros s s' outs j c2 e2 H Ho Hout.
  - destruct j; discriminate Ho.
  - apply run_cons in H. destruct H as [s1 [y [ys [Hs [Hr ->]]]]].
    destruct j as [|j]; cbn [nth_error] in Ho, Hout.
    + inversion Ho; subst. inversion Hout; subst.
      apply c03_step_exec_ok in Hs. apply exec_needs_nonce in Hs. lia.
    + pose proof (IH _ _ _ _ _ _ Hr Ho Hout) as Hge.
      pose proof (c03_step_monotone s o (ct_signer c2)) as Hm. rewrite Hs in Hm. cbn [fst] in Hm.
      lia.
Qed.

(** The first success leaves the signer's nonce at n + 1, nonces only grow afterwards, and the
    second success needs it to be n. *)
Lemma no_replay : stmt_no_replay.
Proof.
  intros s ops. revert s.
  induction ops as [|o r IH]; intros s s' outs i j c1 c2 e1 e2 H Hij H1 H2 Hsg Hn O1 O2.
  - destruct i; discriminate H1.
  - apply run_cons in H. destruct H as [s1 [y [ys [Hs [Hr ->]]]]].
    destruct j as [|j]; [lia|].
    cbn [nth_error] in H2, O2.
    destruct i as [|i]; cbn [nth_error] in H1, O1.
    + inversion H1; subst. inversion O1; subst.
      apply c03_step_exec_ok in Hs.
      pose proof (exec_needs_nonce _ _ _ _ Hs) as Hneed.
      apply exec_bumps_nonce_by_one in Hs. destruct Hs as [Hb _].
      pose proof (c03_run_before _ _ _ _ _ _ _ Hr H2 O2) as Hge. rewrite <- Hsg in Hge. lia.
    + eapply (IH s1 s' ys i j c1 c2 e1 e2); eauto. lia.
Qed.

(** Not a non-fatal error.  Below [pay_fees_and_execute] every error is a literal of a plain
    class and [bind] only passes errors on: [walk_plain] goes down a definition to its leaves
    with these facts, opening each [match]; [tac] closes the calls proved plain before. *)
Definition plain {A} (r : result A) : Prop := forall e, r = Err e -> is_nonfatal e = false.

Lemma plain_ok {A} (a : A) : plain (Ok a).
Proof. intros e H. discriminate H. Qed.

Lemma plain_err {A} e : is_nonfatal e = false -> plain (@Err A e).
Proof. intros H e' [= <-]. exact H. Qed.

Lemma plain_bind {A B} (r : result A) (f : A -> result B) :
  plain r -> (forall a, plain (f a)) -> plain (bind r f).
Proof.
  destruct r; cbn [bind]; [auto|]. intros H _ e0 [= <-]. exact (H e eq_refl).
Qed.

Ltac walk_plain tac :=
  repeat first
    [ apply plain_ok | apply plain_err; reflexivity | apply plain_bind; [|intros ?] | tac
    | match goal with |- plain (match ?x with _ => _ end) => destruct x end ].

Lemma plain_increase s x a amt : plain (increase_balance s x a amt).
Proof. unfold increase_balance. walk_plain fail. Qed.

Lemma plain_decrease s x a amt : plain (decrease_balance s x a amt).
Proof. unfold decrease_balance. walk_plain fail. Qed.

Lemma plain_mutable s signer a : plain (mutable_checks s signer a).
Proof. unfold mutable_checks, unlock_mutable, lock_mutable. walk_plain fail. Qed.

Lemma plain_pay_fee s signer k fa var pos : plain (pay_fee s signer k fa var pos).
Proof. unfold pay_fee. walk_plain ltac:(apply plain_decrease). Qed.

Lemma plain_execute s signer tx idx ca : plain (execute_action s signer tx idx ca).
Proof.
  unfold execute_action.
  walk_plain ltac:(first [apply plain_mutable|apply plain_decrease|apply plain_increase]).
Qed.

Lemma nf_pfe s signer tx idx ca e :
  pay_fees_and_execute s signer tx idx ca = Err (ENonFatal e) ->
  blackburn s = true /\ exists k, fst ca = AIbcRelayFailing k.
Proof.
  unfold pay_fees_and_execute. cbv zeta. intros H.
  destruct (pay_fee s signer (action_kind (fst ca)) (action_fee_asset (fst ca))
                    (action_variable (fst ca)) idx) as [[s1 e1]|e0] eqn:Hp; cbn [bind] in H.
  2:{ injection H as ->. discriminate (plain_pay_fee _ _ _ _ _ _ _ Hp). }
  apply c03_pay_fee_frame in Hp. destruct Hp as [_ Hp].
  destruct (execute_action s1 signer tx idx ca) as [s2|e0] eqn:E.
  { destruct (fst ca); discriminate H. }
  assert (He : blackburn s1 = true /\ exists k, fst ca = AIbcRelayFailing k);
    [|destruct He; split; [congruence|assumption]].
  destruct (fst ca); cbn [bind] in H; try discriminate H;
    try (injection H as ->; discriminate (plain_execute _ _ _ _ _ _ E)).
  destruct (blackburn s1); [eauto|]. injection H as ->. discriminate (plain_execute _ _ _ _ _ _ E).
Qed.

Lemma nf_exec_actions l : forall s signer tx idx e,
  exec_actions s signer tx idx l = Err (ENonFatal e) ->
  blackburn s = true /\ exists k cap, In (AIbcRelayFailing k, cap) l.
Proof.
  induction l as [|ca r IH]; intros s signer tx idx e H; cbn [exec_actions] in H.
  - discriminate H.
  - destruct (pay_fees_and_execute s signer tx idx ca) as [[s1 e1]|e0] eqn:Hp; cbn [bind] in H.
    + destruct (exec_actions s1 signer tx (idx + 1) r) as [[s2 e2]|e0] eqn:Hq; cbn [bind] in H;
        [discriminate H|].
      inversion H; subst. apply IH in Hq. destruct Hq as [Hb [k [cap Hin]]].
      apply pay_fees_and_execute_inv in Hp. destruct Hp as (s0 & Hp & He).
      apply c03_pay_fee_frame in Hp. apply c03_execute_frame in He.
      destruct (c03_frame_trans _ _ _ Hp He) as [_ Hf].
      split; [congruence|]. exists k, cap. right. exact Hin.
    + inversion H; subst. apply nf_pfe in Hp. destruct Hp as [Hb [k Hk]].
      split; [exact Hb|]. destruct ca as [a cap]. cbn [fst] in Hk. subst a.
      exists k, cap. left. reflexivity.
Qed.

Lemma nonfatal_failure_is_identity : stmt_nonfatal_failure_is_identity.
Proof.
  intros s c s' e H. apply exec_tx_err in H. destruct H as [-> [H|H]]; [discriminate H|].
  split; [reflexivity|].
  apply nf_exec_actions in H. destruct (tx_start_shape s c) as (f & E & _).
  rewrite E in H. exact H.
Qed.

Definition c03_is_ok (o : outcome) : bool := match o with OutOk _ => true | OutErr _ => false end.

Lemma c03_ok_witness (p : state * outcome) :
  c03_is_ok (snd p) = true -> exists s' evs, p = (s', OutOk evs).
Proof. destruct p as [s' [evs|e]]; cbn; intros H; [eauto|discriminate]. Qed.

Lemma c03_err_witness (p : state * outcome) :
  c03_is_ok (snd p) = false -> exists s' e, p = (s', OutErr e).
Proof. destruct p as [s' [evs|e]]; cbn; intros H; [discriminate|eauto]. Qed.

(** sample_tx1 (signer 4, nonce 0) executes on the sample state, whose nonce of 4 is 0. *)
Example exec_needs_nonce_nonvacuous :
  let c := checked sample_state sample_tx1 in
  (exists s' evs, exec_tx sample_state c = (s', OutOk evs)) /\
  ct_signer c = 4 /\ ct_nonce c = 0 /\ nonce sample_state 4 = 0.
Proof.
  cbv zeta. split; [apply c03_ok_witness; vm_compute; reflexivity|].
  vm_compute. repeat split; reflexivity.
Qed.

(** After sample_tx1 the nonce of its signer 4 is 1 while the nonce of 5 is untouched. *)
Example exec_bumps_nonce_by_one_nonvacuous :
  let c := checked sample_state sample_tx1 in
  (exists s' evs, exec_tx sample_state c = (s', OutOk evs)) /\
  nonce (fst (exec_tx sample_state c)) 4 = 1 /\
  nonce (fst (exec_tx sample_state c)) 5 = 0.
Proof.
  cbv zeta. split; [apply c03_ok_witness; vm_compute; reflexivity|].
  vm_compute. repeat split; reflexivity.
Qed.

(** sample_tx_fail fails (insufficient funds at its second action). *)
Example failed_tx_is_identity_nonvacuous :
  let c := checked sample_state sample_tx_fail in
  (exists s' e, exec_tx sample_state c = (s', OutErr e)) /\
  snd (exec_tx sample_state c) = OutErr EFunds /\
  length (ct_actions c) = 2%nat.
Proof.
  cbv zeta. split; [apply c03_err_witness; vm_compute; reflexivity|].
  vm_compute. repeat split; reflexivity.
Qed.

(** Over the sample history the nonce of account 4 strictly grows (two executed txs). *)
Example nonce_monotone_nonvacuous :
  nonce sample_state 4 = 0 /\ nonce (fst (run sample_state sample_ops)) 4 = 2 /\
  length (snd (run sample_state sample_ops)) = 6%nat.
Proof. vm_compute. repeat split; reflexivity. Qed.

(** sample_tx1 submitted twice: every hypothesis of [stmt_no_replay] but the last holds, and the
    second submission is rejected with a nonce error. *)
Example no_replay_nonvacuous :
  let c := checked sample_state sample_tx1 in
  let ops := [OpBegin 3 6; OpExec c; OpExec c; OpEnd] in
  nth_error ops 1 = Some (OpExec c) /\ nth_error ops 2 = Some (OpExec c) /\
  (exists e1, nth_error (snd (run sample_state ops)) 1 = Some (STx (OutOk e1))) /\
  nth_error (snd (run sample_state ops)) 2 = Some (STx (OutErr ENonce)) /\
  nonce (fst (run sample_state ops)) 4 = 1.
Proof.
  cbv zeta. split; [reflexivity|]. split; [reflexivity|].
  split; [eexists; vm_compute; reflexivity|].
  vm_compute. split; reflexivity.
Qed.

(** [transfer; failing IbcRelay] signed by the relayer 5 fails non-fatally after Blackburn, fatally
    before, without a trace in both eras; its first action alone executes. *)
Example nonfatal_failure_is_identity_nonvacuous :
  let post := sample_relay_state true in
  let pre := sample_relay_state false in
  exec_tx post (checked post sample_tx_relay) = (post, OutErr (ENonFatal EOther)) /\
  exec_tx pre (checked pre sample_tx_relay) = (pre, OutErr EOther) /\
  length (ct_actions (checked post sample_tx_relay)) = 2%nat /\
  c03_is_ok (snd (exec_tx post (checked post sample_tx_relay_prefix))) = true /\
  bal (fst (exec_tx post (checked post sample_tx_relay_prefix))) 4 0 = 1000010.
Proof.
  vm_compute. repeat split; reflexivity.
Qed.

(** The nonce edge: at nonce u32::MAX - 1 a transaction executes and the nonce becomes u32::MAX;
    there every transaction fails (checked_add), so (signer, u32::MAX) never takes effect. *)
Example nonce_edge_nonvacuous :
  let s1 := op_setnonce sample_state 4 (U32_MAX - 1) in
  let s2 := fst (exec_tx s1 (checked s1 (mk_tx 109 4 (U32_MAX - 1) [ATransfer 5 1 0 0]))) in
  nonce s2 4 = U32_MAX /\
  snd (exec_tx s2 (checked s2 (mk_tx 110 4 U32_MAX [ATransfer 5 1 0 0]))) = OutErr ENonce /\
  ct_nonce (checked s2 (mk_tx 110 4 U32_MAX [ATransfer 5 1 0 0])) = U32_MAX.
Proof. vm_compute. repeat split; reflexivity. Qed.
