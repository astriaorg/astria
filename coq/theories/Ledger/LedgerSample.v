(** A concrete reachable-looking state and a few transactions, used by the non-vacuity Examples,
    with the lemmas by which an Example takes its witnesses from the run itself. *)
From Astria Require Import Base.Bounded Ledger.LedgerModel Ledger.LedgerSpec.

(** accounts 0..7; asset 0 native (fee asset), asset 1 a voucher; account 6 is a bridge account
    (rollup 1, asset 0, sudo 2, withdrawer 3); sudo address 0, ibc sudo 1; channel 0 is open. *)
Definition sample_fees (k : kind) : option (N * N) :=
  match k with
  | KTransfer => Some (12, 0)
  | KRollup => Some (32, 1)
  | KLock => Some (5, 2)
  | KRecover | KPairs | KMarkets | KIbcRelay => None
  | _ => Some (3, 0)
  end.

Definition sample_bridge : bridge_rec :=
  {| br_rollup := 1; br_asset := 0; br_sudo := Some 2; br_withdrawer := Some 3;
     br_disabled := None; br_lasttx := None |}.

Definition sample_state : state :=
  {| bal := fun x a => if a =? 0 then (if x <? 8 then 1000000 else 0)
                       else if (a =? 1) && (x =? 4) then 500 else 0;
     nonce := fun _ => 0;
     escrow := fun _ _ => 0;
     bridge := fun x => if x =? 6 then Some sample_bridge else None;
     wevent := fun _ _ => None;
     sudo := 0; ibc_sudo := 1;
     relayer := fun _ => false;
     fees := sample_fees;
     fee_assets := [0];
     known_assets := fun a => a =? 0;
     channels := fun c => c =? 0;
     validators := fun x => if x <? 3 then Some 10 else None;
     valcount := 3;
     block_fees := [];
     deposits := [];
     blackburn := true;
     height := 5 |}.

Definition mk_tx (id signer nonce : N) (l : list action) : tx :=
  {| tx_id := id; tx_signer := signer; tx_nonce := nonce; tx_actions := l |}.

Definition checked (s : state) (t : tx) : checked_tx :=
  match construct_tx s t with
  | Ok c => c
  | Err _ => {| ct_id := 0; ct_signer := 0; ct_nonce := 0; ct_actions := [] |}
  end.

(** a transfer + a lock + a rollup submission by account 4 *)
Definition sample_tx1 : tx :=
  mk_tx 101 4 0 [ATransfer 5 100 0 0; ALock 6 250 0 false 4 0 7 10; ARollup 2 40 0].
(** the withdrawer 3 unlocks 70 from the bridge to account 5 (event id 9) *)
Definition sample_tx2 : tx := mk_tx 102 3 0 [AUnlock 5 70 0 6 0 12 9 2].
(** a burn: account 4 withdraws 30 of the voucher asset 1 over its origin channel *)
Definition sample_tx3 : tx := mk_tx 103 4 1 [AIcs20 30 1 false 0 0 None MemoBad].
(** fails at the second action (insufficient funds): nothing must remain *)
Definition sample_tx_fail : tx :=
  mk_tx 104 5 0 [ATransfer 4 10 0 0; ATransfer 4 99999999 0 0].
Definition sample_tx_sudo : tx := mk_tx 105 0 0 [AFeeChange KTransfer 7 0; AFeeAsset true 1].
Definition sample_tx_bsudo : tx := mk_tx 106 2 0 [ABSudo 6 None (Some 7) 0 true].

(** account 5 is an IBC relayer and IbcRelay has a fee schedule; [bb] = Blackburn active *)
Definition sample_relay_state (bb : bool) : state :=
  set_round (set_fees (set_relayer sample_state (fun x => x =? 5))
                      (updk sample_fees KIbcRelay (Some (9, 0)))) bb 5.
(** a transfer followed by an IbcRelay message that fails execution *)
Definition sample_tx_relay : tx := mk_tx 107 5 0 [ATransfer 4 10 0 0; AIbcRelayFailing 0].
Definition sample_tx_relay_prefix : tx := mk_tx 108 5 0 [ATransfer 4 10 0 0].

(** asset 1 is a second allowed fee asset; account 4 pays a transfer fee in it, then the sudo
    account 0 removes asset 1 from the allowed fee assets - all in one block *)
Definition sample_two_fee_assets : state := set_fee_assets sample_state [0; 1].
Definition sample_tx_fee_in_1 : tx := mk_tx 111 4 0 [ATransfer 5 100 0 1].
Definition sample_tx_remove_1 : tx := mk_tx 112 0 0 [AFeeAsset false 1].
Definition sample_ops_fee_asset_removed : list op :=
  let s0 := begin_block sample_two_fee_assets 3 6 in
  let c1 := checked s0 sample_tx_fee_in_1 in
  let s1 := fst (exec_tx s0 c1) in
  [OpBegin 3 6; OpExec c1; OpExec (checked s1 sample_tx_remove_1)].

Definition sample_ops : list op :=
  [OpBegin 3 6;
   OpExec (checked sample_state sample_tx1);
   OpExec (checked sample_state sample_tx2);
   OpExec (checked sample_state sample_tx_fail);
   OpExec (checked sample_state sample_tx3);
   OpEnd].

Definition sample_L : list addr := [0; 1; 2; 3; 4; 5; 6; 7].
Definition sample_C : list chan := [0; 1].

(** The witnesses of an example "this run succeeds and its result satisfies P" are the run's
    own result: nothing is left for unification to fill in with a normal form. *)
Lemma ok_witness {A} (r : result A) (P : A -> Prop) :
  match r with Ok a => P a | Err _ => False end -> exists a, r = Ok a /\ P a.
Proof. destruct r; [eauto|contradiction]. Qed.

Lemma ok_witness2 {A B} (r : result (A * B)) (P : A -> B -> Prop) :
  match r with Ok (a, b) => P a b | Err _ => False end -> exists a b, r = Ok (a, b) /\ P a b.
Proof. destruct r as [[a b]|]; [eauto|contradiction]. Qed.

Lemma tx_ok_witness (p : state * outcome) (P : state -> list fee_event -> Prop) :
  match p with (s', OutOk evs) => P s' evs | _ => False end ->
  exists s' evs, p = (s', OutOk evs) /\ P s' evs.
Proof. destruct p as [s' [evs|e]]; [eauto|contradiction]. Qed.

Definition out_ok (o : step_out) : bool :=
  match o with STx (OutOk _) => true | SEnd (Some _) => true | SNone => true | _ => false end.

Example sample_run_outcomes :
  map out_ok (snd (run sample_state sample_ops)) = [true; true; true; false; true; true].
Proof. vm_compute. reflexivity. Qed.

Example sample_run_supply :
  let s' := fst (run sample_state sample_ops) in
  supply0 sample_L sample_C sample_state 0 = 8000000 /\
  supply0 sample_L sample_C s' 0 = 8000000 /\
  supply0 sample_L sample_C sample_state 1 = 500 /\
  supply0 sample_L sample_C s' 1 = 470 /\
  bal s' 6 0 = 1000000 + 250 - 70 /\
  nonce s' 4 = 2 /\ nonce s' 5 = 0 /\ wevent s' 6 9 = Some 12.
Proof. vm_compute. repeat split; reflexivity. Qed.
