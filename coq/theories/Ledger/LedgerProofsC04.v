(** C04.  Deposits and withdrawal events are columns of [exec_state]; that a bridge keeps its
    identity and a recorded event stays recorded are preorders on states, lifted from the writers
    of [bridge] and [wevent] to every step (Section C04Lift). *)
From Astria Require Import Base.Bounded Ledger.LedgerModel Ledger.LedgerSpec Ledger.LedgerLemmas Ledger.LedgerEffect Ledger.LedgerSample.

Lemma constructed_deposit_targets_bridge : stmt_constructed_deposit_targets_bridge.
Proof.
  intros s signer a ca H.
  destruct a; cbn [construct_action] in H;
    try (apply bind_ok in H; destruct H as [[] [_ [= <-]]]; exact I).  (* no capture *)
  - (* Lock *)
    destruct (bridge s to) as [br|] eqn:Eb; [|discriminate].
    apply check_ok in H. destruct H as [Ha H]. apply check_ok in H. destruct H as [_ H].
    apply bind_ok in H. destruct H as [[] [_ [= <-]]].
    exists br. apply N.eqb_eq in Ha. auto.
  - (* Unlock *)
    apply bind_ok in H. destruct H as [[] [_ H]]. destruct (bridge s b); [|discriminate].
    apply bind_ok in H. destruct H as [[] [_ [= <-]]]. exact I.
  - (* BTransfer *)
    apply bind_ok in H. destruct H as [[] [_ H]].
    destruct (bridge s b) as [br|] eqn:Eb; [|discriminate].
    apply bind_ok in H. destruct H as [[] [_ H]].
    destruct (bridge s to) as [brt|] eqn:Et; [|discriminate].
    apply check_ok in H. destruct H as [Ha H]. apply check_ok in H. destruct H as [_ H].
    apply bind_ok in H. destruct H as [[] [_ H]]. apply bind_ok in H. destruct H as [[] [_ [= <-]]].
    exists br, brt. apply N.eqb_eq in Ha. auto.
  - (* Ics20 *)
    apply check_ok in H. destruct H as [_ H]. apply bind_ok in H. destruct H as [[] [_ H]].
    apply bind_ok in H. destruct H as [[] [_ [= <-]]]. exact I.
  - (* Rollup *) apply check_ok in H. destruct H as [_ [= <-]]. exact I.
Qed.

Example constructed_deposit_targets_bridge_nonvacuous :
  construct_action sample_state 4 (ALock 6 250 0 false 4 0 7 10)
  = Ok (ALock 6 250 0 false 4 0 7 10, CapLock 1) /\
  bridge sample_state 6 = Some sample_bridge /\ br_rollup sample_bridge = 1 /\
  br_asset sample_bridge = 0.
Proof. vm_compute. repeat split; reflexivity. Qed.

(** A preorder on states that is insensitive to everything but [bridge] and [wevent] and is
    respected by the four writers of these two fields is respected by every step. *)
Section C04Lift.
  Variable R : state -> state -> Prop.
  Hypothesis R_refl : forall s, R s s.
  Hypothesis R_trans : forall s1 s2 s3, R s1 s2 -> R s2 s3 -> R s1 s3.
  Hypothesis R_frame : forall s s', bridge s' = bridge s -> wevent s' = wevent s -> R s s'.
  Hypothesis R_lasttx : forall s x t, R s (put_lasttx s x t).
  Hypothesis R_init : forall s x br, is_bridge s x = false -> R s (put_bridge s x br).
  Hypothesis R_bsudo : forall s b br new,
    bridge s b = Some br -> br_rollup new = br_rollup br -> br_asset new = br_asset br ->
    R s (put_bridge s b new).
  Hypothesis R_wevent : forall s b e blk, R s (put_wevent s b e blk).

  (* first the [wevent] column of [exec_state], then the [bridge] column *)
  Lemma c04_lift_execute s signer tx idx ca s' :
    execute_action s signer tx idx ca = Ok s' -> R s s'.
  Proof.
    destruct ca as [a cap]. intros H.
    apply execute_action_inv in H. destruct H as (Hm & [_ Hpre] & ->).
    apply R_trans with (set_wevent s (wevent (exec_state s signer tx idx a cap))).
    { cbn [wevent exec_state].
      destruct (act_mark a) as [[[b ev] blk]|]; [apply R_wevent|apply R_frame; reflexivity]. }
    destruct a; cbn [mutable_checks] in Hm; try (apply R_frame; reflexivity).
    - (* InitBridge *) eapply R_trans; [eapply R_init|apply R_frame; reflexivity].
      apply check_ok in Hm. destruct Hm as [Hm _]. apply Bool.negb_true_iff. exact Hm.
    - (* BSudo *) destruct (bridge s b) as [br|] eqn:Eb; [|contradiction].
      eapply R_trans; [eapply R_bsudo; [exact Eb| |]|
                       apply R_frame; [unfold exec_state, act_bridge; rewrite Eb|]; reflexivity];
        reflexivity.
  Qed.

  Lemma c04_lift_exec_actions signer tx l idx s s' evs :
    exec_actions s signer tx idx l = Ok (s', evs) -> R s s'.
  Proof.
    apply (exec_actions_lift signer tx R R_refl R_trans).
    - intros s0 k fa var pos s1 evs1 H. apply pay_fee_shape in H. destruct H as (f & l0 & ->).
      apply R_frame; reflexivity.
    - intros s0 idx0 ca s1. apply c04_lift_execute.
  Qed.

  Lemma c04_lift_exec_tx s c : R s (fst (exec_tx s c)).
  Proof.
    destruct (exec_tx s c) as [s' [evs|e]] eqn:E; cbn [fst].
    - apply exec_tx_ok in E. destruct E as (_ & _ & E).
      eapply R_trans; [|eapply c04_lift_exec_actions; exact E].
      eapply R_trans; [apply (R_lasttx s (ct_signer c) (ct_id c))|apply R_frame; reflexivity].
    - apply exec_tx_err in E. destruct E as [-> _]. apply R_refl.
  Qed.

  Lemma c04_lift_step s o : R s (fst (step s o)).
  Proof.
    destruct (step_shape s o) as [[c ->]|(_ & Eb & Ew)]; [|apply R_frame; assumption].
    cbn [step]. pose proof (c04_lift_exec_tx s c) as H. destruct (exec_tx s c) as [s' out]. exact H.
  Qed.
End C04Lift.

Definition c04_bstable (s s' : state) : Prop :=
  forall b br, bridge s b = Some br ->
    exists br', bridge s' b = Some br' /\ br_rollup br' = br_rollup br /\
                br_asset br' = br_asset br.

Lemma c04_bstable_refl s : c04_bstable s s.
Proof. intros b br H. exists br. auto. Qed.

Lemma c04_bstable_trans s1 s2 s3 : c04_bstable s1 s2 -> c04_bstable s2 s3 -> c04_bstable s1 s3.
Proof.
  intros H12 H23 b br H. destruct (H12 b br H) as [br2 [H2 [Hr2 Ha2]]].
  destruct (H23 b br2 H2) as [br3 [H3 [Hr3 Ha3]]]. exists br3. repeat split; congruence.
Qed.

Lemma c04_bstable_frame s s' : bridge s' = bridge s -> wevent s' = wevent s -> c04_bstable s s'.
Proof. intros Hb _ b br H. exists br. rewrite Hb. auto. Qed.

Lemma c04_bstable_put s b0 br0 new :
  bridge s b0 = Some br0 -> br_rollup new = br_rollup br0 -> br_asset new = br_asset br0 ->
  c04_bstable s (put_bridge s b0 new).
Proof.
  intros H0 Hr Ha b br H. unfold put_bridge. cbn [bridge set_bridge]. unfold upd1.
  destruct (N.eqb_spec b b0) as [->|Hne].
  - exists new. rewrite H0 in H. inversion H; subst. auto.
  - exists br. auto.
Qed.

Lemma c04_bstable_lasttx s x t : c04_bstable s (put_lasttx s x t).
Proof.
  unfold put_lasttx. destruct (bridge s x) as [br|] eqn:E; [|apply c04_bstable_refl].
  eapply c04_bstable_put; [eassumption|reflexivity|reflexivity].
Qed.

Lemma c04_bstable_init s x br : is_bridge s x = false -> c04_bstable s (put_bridge s x br).
Proof.
  unfold is_bridge. intros Hx b br0 H. unfold put_bridge. cbn [bridge set_bridge]. unfold upd1.
  destruct (N.eqb_spec b x) as [->|Hne].
  - rewrite H in Hx. discriminate.
  - exists br0. auto.
Qed.

Lemma c04_bstable_wevent s b e blk : c04_bstable s (put_wevent s b e blk).
Proof. intros b0 br H. exists br. cbn. auto. Qed.

Lemma bridge_identity_stable : stmt_bridge_identity_stable.
Proof.
  intros s o b br H.
  exact (c04_lift_step c04_bstable c04_bstable_refl c04_bstable_trans c04_bstable_frame
           c04_bstable_lasttx c04_bstable_init c04_bstable_put c04_bstable_wevent s o b br H).
Qed.

Example bridge_identity_stable_nonvacuous :
  bridge sample_state 6 = Some sample_bridge /\
  (exists br', bridge (fst (step sample_state (OpExec (checked sample_state sample_tx_bsudo)))) 6
               = Some br' /\ br_withdrawer br' = Some 7 /\ br_disabled br' = Some true /\
               br_rollup br' = 1 /\ br_asset br' = 0) /\
  (exists evs, snd (step sample_state (OpExec (checked sample_state sample_tx_bsudo)))
               = STx (OutOk evs)).
Proof. vm_compute. repeat split; eexists; repeat split; reflexivity. Qed.

Lemma deposit_backed : stmt_deposit_backed.
Proof.
  intros s signer tx idx [a cap] s' H. cbn [fst].
  apply execute_action_inv in H. destruct H as (Hm & [Hmv _] & ->).
  destruct a; cbn [mutable_checks] in Hm;
    try (exists []; split; [rewrite app_nil_r; reflexivity|reflexivity]).
  - (* Lock: a bridge account cannot be the signer, so the credit is not offset *)
    eexists. split; [reflexivity|]. eexists. split; [reflexivity|].
    do 5 (split; [reflexivity|]). intros Hb.
    assert (Hne : to <> signer).
    { intros ->. unfold lock_mutable in Hm. rewrite Hb in Hm. discriminate Hm. }
    pose proof (bal_move _ _ _ _ _ to Hmv) as E.
    apply N.eqb_neq in Hne. rewrite Hne, N.eqb_refl in E. cbn. cbn in E. lia.
  - (* BTransfer: to itself the credit is offset by the debit *)
    eexists. split; [reflexivity|]. eexists. split; [reflexivity|].
    do 4 (split; [reflexivity|]).
    pose proof (bal_move _ _ _ _ _ to Hmv) as Et.
    pose proof (bal_move _ _ _ _ _ b Hmv) as Eb.
    destruct Hmv as [Hle _].
    rewrite N.eqb_refl in Et, Eb. cbn in Et, Eb, Hle |- *. split.
    + intros Hne. apply N.eqb_neq in Hne. rewrite Hne in Eb. rewrite N.eqb_sym, Hne in Et. lia.
    + intros ->. lia.
Qed.

Example deposit_backed_nonvacuous :
  exists s',
    execute_action sample_state 4 101 1 (ALock 6 250 0 false 4 0 7 10, CapLock 1) = Ok s' /\
    deposits s' = deposits sample_state ++
                  [{| d_bridge := 6; d_rollup := 1; d_asset := 0; d_amount := 250; d_dest := 7;
                      d_tx := 101; d_idx := 1 |}] /\
    is_bridge sample_state 6 = true /\
    bal s' 6 0 = bal sample_state 6 0 + 250.
Proof. apply ok_witness. vm_compute. repeat split; reflexivity. Qed.

Definition c04_deposits_of (tx : txid) (s s' : state) : Prop :=
  exists new, deposits s' = deposits s ++ new /\ forall d, In d new -> d_tx d = tx.

Lemma c04_deposits_refl tx s s' : deposits s' = deposits s -> c04_deposits_of tx s s'.
Proof. intros E. exists []. split; [rewrite app_nil_r; exact E|intros d []]. Qed.

Lemma c04_deposits_trans tx s1 s2 s3 :
  c04_deposits_of tx s1 s2 -> c04_deposits_of tx s2 s3 -> c04_deposits_of tx s1 s3.
Proof.
  intros (n1 & E1 & T1) (n2 & E2 & T2). exists (n1 ++ n2). split.
  - rewrite E2, E1, app_assoc. reflexivity.
  - intros d Hin. apply in_app_or in Hin. destruct Hin; auto.
Qed.

Lemma c04_execute_deposits_tx s signer tx idx ca s' :
  execute_action s signer tx idx ca = Ok s' -> c04_deposits_of tx s s'.
Proof.
  destruct ca as [a cap]. intros H. apply execute_action_inv in H. destruct H as (_ & _ & ->).
  unfold c04_deposits_of. cbn [deposits exec_state].
  destruct (act_deposit tx idx a cap) as [d|] eqn:Ed; [|apply c04_deposits_refl; reflexivity].
  exists [d]. split; [reflexivity|]. intros d' [<-|[]].
  destruct a; try discriminate Ed; injection Ed as <-; reflexivity.
Qed.

Lemma c04_exec_actions_deposits signer tx l idx s s' evs :
  exec_actions s signer tx idx l = Ok (s', evs) -> c04_deposits_of tx s s'.
Proof.
  apply (exec_actions_lift signer tx (c04_deposits_of tx)).
  - intros s0. apply c04_deposits_refl. reflexivity.
  - apply c04_deposits_trans.
  - intros s0 k fa var pos s1 evs1 H. apply pay_fee_shape in H. destruct H as (f & l0 & ->).
    apply c04_deposits_refl. reflexivity.
  - intros s0 idx0 ca s1. apply c04_execute_deposits_tx.
Qed.

Lemma no_deposit_without_effect : stmt_no_deposit_without_effect.
Proof.
  split; [|split; [|split]].
  - intros s c s' e H. apply exec_tx_err in H. destruct H as [-> _]. reflexivity.
  - intros s c s' evs H. apply exec_tx_ok in H. destruct H as (_ & _ & H).
    apply c04_exec_actions_deposits in H.
    destruct (tx_start_shape s c) as (f & E & _). rewrite E in H. exact H.
  - intros s signer k fa var pos s' evs H.
    apply pay_fee_shape in H. destruct H as (f & l & ->). reflexivity.
  - intros s s' ds H. apply end_block_ok in H. destruct H as (s1 & _ & -> & ->).
    split; reflexivity.
Qed.

Example no_deposit_without_effect_nonvacuous :
  (exists e, snd (exec_tx sample_state (checked sample_state sample_tx_fail)) = OutErr e) /\
  (exists evs, snd (exec_tx sample_state (checked sample_state sample_tx1)) = OutOk evs) /\
  map d_tx (deposits (fst (exec_tx sample_state (checked sample_state sample_tx1)))) = [101] /\
  ct_id (checked sample_state sample_tx1) = 101.
Proof. vm_compute. repeat split; eexists; reflexivity. Qed.

Lemma c04_put_wevent_same s b e blk : wevent (put_wevent s b e blk) b e = Some blk.
Proof. cbn. rewrite !N.eqb_refl. reflexivity. Qed.

Lemma event_id_checked_and_recorded : stmt_event_id_checked_and_recorded.
Proof.
  intros s signer tx idx [a cap] s' b e H Hc. cbn [fst] in Hc.
  apply execute_action_inv in H. destruct H as (Hm & _ & ->).
  assert (Ea : exists blk, act_mark a = Some (b, e, blk)).
  { destruct a; try discriminate Hc; cbn [carries] in Hc;
      [ | |destruct b0 as [b0|]; [destruct memo|]; try discriminate Hc];
      rewrite andb_true_iff, !N.eqb_eq in Hc; destruct Hc as [<- <-]; eexists; reflexivity. }
  destruct Ea as [blk Ea]. split; [exact (proj2 (mark_checked _ _ _ _ _ _ Hm Ea))|].
  cbn [wevent exec_state]. rewrite Ea, c04_put_wevent_same. discriminate.
Qed.

Example event_id_checked_and_recorded_nonvacuous :
  exists s',
    execute_action sample_state 3 102 0 (AUnlock 5 70 0 6 0 12 9 2, CapUnlock 0) = Ok s' /\
    carries (AUnlock 5 70 0 6 0 12 9 2) 6 9 = true /\
    wevent sample_state 6 9 = None /\ wevent s' 6 9 = Some 12.
Proof. apply ok_witness. vm_compute. repeat split; reflexivity. Qed.

Definition c04_wmono (s s' : state) : Prop :=
  forall b e, wevent s b e <> None -> wevent s' b e <> None.

Lemma c04_wmono_refl s : c04_wmono s s.
Proof. intros b e H. exact H. Qed.

Lemma c04_wmono_trans s1 s2 s3 : c04_wmono s1 s2 -> c04_wmono s2 s3 -> c04_wmono s1 s3.
Proof. intros H12 H23 b e H. apply H23, H12, H. Qed.

Lemma c04_wmono_frame s s' : bridge s' = bridge s -> wevent s' = wevent s -> c04_wmono s s'.
Proof. intros _ Hw b e H. rewrite Hw. exact H. Qed.

Lemma c04_wmono_put_bridge s x br : c04_wmono s (put_bridge s x br).
Proof. intros b e H. exact H. Qed.

Lemma c04_wmono_lasttx s x t : c04_wmono s (put_lasttx s x t).
Proof.
  unfold put_lasttx. destruct (bridge s x); [apply c04_wmono_put_bridge|apply c04_wmono_refl].
Qed.

Lemma c04_wmono_wevent s b e blk : c04_wmono s (put_wevent s b e blk).
Proof.
  intros b0 e0 H. cbn. destruct ((b0 =? b) && (e0 =? e)); [discriminate|exact H].
Qed.

Lemma c04_wmono_step s o : c04_wmono s (fst (step s o)).
Proof.
  exact (c04_lift_step c04_wmono c04_wmono_refl c04_wmono_trans c04_wmono_frame c04_wmono_lasttx
           (fun s0 x br _ => c04_wmono_put_bridge s0 x br)
           (fun s0 b _ new _ _ _ => c04_wmono_put_bridge s0 b new) c04_wmono_wevent s o).
Qed.

Lemma c04_wmono_execute s signer tx idx ca s' :
  execute_action s signer tx idx ca = Ok s' -> c04_wmono s s'.
Proof.
  exact (c04_lift_execute c04_wmono c04_wmono_trans c04_wmono_frame
           (fun s0 x br _ => c04_wmono_put_bridge s0 x br)
           (fun s0 b _ new _ _ _ => c04_wmono_put_bridge s0 b new) c04_wmono_wevent
           s signer tx idx ca s').
Qed.

Definition c04_count (l : list checked_action) (b : addr) (e : evid) : nat :=
  length (filter (fun ca => carries (fst ca) b e) l).

(** 1 once [(b, e)] is recorded, else 0.  A carrier executes only on an unused id and leaves it
    used, and used ids stay used: the carriers executed plus the value before are at most the
    value after. *)
Definition c04_used (s : state) (b : addr) (e : evid) : nat :=
  match wevent s b e with Some _ => 1%nat | None => 0%nat end.

Lemma c04_wmono_used s s' b e : c04_wmono s s' -> (c04_used s b e <= c04_used s' b e)%nat.
Proof.
  intros H. specialize (H b e). unfold c04_used.
  destruct (wevent s b e), (wevent s' b e); auto. exfalso. apply H; [discriminate|reflexivity].
Qed.

Lemma c04_exec_actions_once signer tx b e l idx s s' evs :
  exec_actions s signer tx idx l = Ok (s', evs) ->
  (c04_count l b e + c04_used s b e <= c04_used s' b e)%nat.
Proof.
  revert l idx s s' evs.
  apply (exec_actions_ind signer tx (fun _ s l s' _ =>
    (c04_count l b e + c04_used s b e <= c04_used s' b e)%nat)).
  - intros _ s. apply le_n.
  - intros idx s ca l s0 s1 e1 s2 e2 Hp He IH.
    assert (U : c04_used s0 b e = c04_used s b e).
    { apply pay_fee_shape in Hp. destruct Hp as (f & l0 & ->). reflexivity. }
    unfold c04_count in *. cbn [filter]. destruct (carries (fst ca) b e) eqn:Ec; cbn [length].
    + destruct (event_id_checked_and_recorded _ _ _ _ _ _ b e He Ec) as [Hn Hr].
      assert (U0 : c04_used s0 b e = 0%nat) by (unfold c04_used; rewrite Hn; reflexivity).
      assert (U1 : c04_used s1 b e = 1%nat)
        by (unfold c04_used; destruct (wevent s1 b e); [reflexivity|contradiction]).
      lia.
    + pose proof (c04_wmono_used _ _ b e (c04_wmono_execute _ _ _ _ _ _ He)). lia.
Qed.

Lemma c04_exec_tx_once s c s' evs b e :
  exec_tx s c = (s', OutOk evs) ->
  (carried_tx c b e + c04_used s b e <= c04_used s' b e)%nat.
Proof.
  intros H. apply exec_tx_ok in H. destruct H as (_ & _ & H).
  apply (c04_exec_actions_once _ _ b e) in H.
  destruct (tx_start_shape s c) as (f & E & _). rewrite E in H. exact H.
Qed.

Lemma c04_exec_tx_err s c s' err : exec_tx s c = (s', OutErr err) -> s' = s.
Proof. intros H. apply exec_tx_err in H. tauto. Qed.

Lemma c04_run_once b e ops : forall s s' outs,
  run s ops = (s', outs) ->
  (carried_run ops outs b e + c04_used s b e <= c04_used s' b e)%nat.
Proof.
  induction ops as [|o r IH]; intros s s' outs H.
  - injection H as <- <-. apply le_n.
  - apply run_cons in H. destruct H as (s1 & x & xs & Hs & Hr & ->). specialize (IH _ _ _ Hr).
    pose proof (c04_wmono_used _ _ b e (c04_wmono_step s o)) as Hm. rewrite Hs in Hm. cbn [fst] in Hm.
    (* only an executed transaction adds to the count *)
    destruct o; try (cbn [carried_run]; lia).
    cbn [step] in Hs. destruct (exec_tx s c) as [s1' [evs|err]] eqn:Ex;
      injection Hs as <- <-; cbn [carried_run]; [|lia].
    pose proof (c04_exec_tx_once _ _ _ _ b e Ex). lia.
Qed.

Lemma event_id_once : stmt_event_id_once.
Proof.
  intros s ops s' outs b e H. pose proof (c04_run_once b e ops s s' outs H) as I.
  unfold c04_used in I.
  destruct (wevent s b e), (wevent s' b e); repeat split; intros; try lia; congruence.
Qed.

Example event_id_once_nonvacuous :
  carried_run sample_ops (snd (run sample_state sample_ops)) 6 9 = 1%nat /\
  wevent sample_state 6 9 = None /\
  wevent (fst (run sample_state sample_ops)) 6 9 = Some 12 /\
  (let ops2 := sample_ops ++ [OpExec (checked sample_state sample_tx2)] in
   carried_run ops2 (snd (run sample_state ops2)) 6 9 = 1%nat).
Proof. vm_compute. repeat split; reflexivity. Qed.
