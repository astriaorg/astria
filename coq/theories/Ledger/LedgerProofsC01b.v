(** C01 (part b): fee amount, fee log and fee routing. *)
From Astria Require Import Base.Bounded Base.KernelLib Ledger.LedgerModel Ledger.LedgerSpec Ledger.LedgerLemmas Ledger.LedgerEffect Ledger.LedgerSample.

Lemma c01b_fee_amount_exact base mult var :
  base + mult * var <= U128_MAX -> fee_amount base mult var = base + mult * var.
Proof.
  intros H. unfold fee_amount.
  rewrite saturating_mul_exact by lia. rewrite saturating_add_exact by lia. lia.
Qed.

Lemma fee_exact : stmt_fee_exact.
Proof.
  unfold stmt_fee_exact. intros s signer k a var pos s' evs H.
  apply pay_fee_ok in H. destruct H as (base & mult & Hf & _ & _ & Hle & -> & ->).
  exists base, mult. split; [exact Hf|]. split; [reflexivity|].
  split; [apply c01b_fee_amount_exact|]. cbn [bal block_fees debit set_bal set_block_fees].
  split; [rewrite upd2_same; lia|].
  split; [|reflexivity].
  intros x b Hne. apply upd2_other. exact Hne.
Qed.

Example fee_exact_nonvacuous :
  exists s' evs,
    pay_fee sample_state 4 KLock (Some 0) 30 2 = Ok (s', evs) /\
    evs = [ {| fe_pos := 2; fe_kind := KLock; fe_asset := 0; fe_amount := 65 |} ] /\
    bal s' 4 0 = 999935 /\ block_fees s' = [(0, 65)].
Proof. apply ok_witness2. vm_compute. repeat split; reflexivity. Qed.

Lemma fee_free : stmt_fee_free.
Proof.
  unfold stmt_fee_free. intros s signer k var pos s' evs H.
  apply pay_fee_ok in H. destruct H as (base & mult & _ & H). exact H.
Qed.

Example fee_free_nonvacuous :
  pay_fee sample_state 0 KSudoChange None 0 0 = Ok (sample_state, []).
Proof. vm_compute. reflexivity. Qed.

Lemma fee_saturates_refuted : stmt_fee_saturates_refuted.
Proof.
  unfold stmt_fee_saturates_refuted.
  exists 1, U128_MAX, 20.
  unfold fee_amount, saturating_add, saturating_mul, U128_MAX, U64_MAX.
  repeat split; lia.
Qed.

Example fee_saturates_refuted_nonvacuous :
  fee_amount 1 U128_MAX 20 = U128_MAX /\ 1 + U128_MAX * 20 = 6805647338418769269267492148635364229101.
Proof. vm_compute. split; reflexivity. Qed.

Lemma c01b_exec_actions_bf signer tx l idx s s' evs :
  exec_actions s signer tx idx l = Ok (s', evs) ->
  block_fees s' = rev (map (fun e => (fe_asset e, fe_amount e)) evs) ++ block_fees s.
Proof.
  revert l idx s s' evs.
  apply (exec_actions_ind signer tx (fun _ s _ s' evs =>
    block_fees s' = rev (map (fun e => (fe_asset e, fe_amount e)) evs) ++ block_fees s)).
  - reflexivity.
  - intros idx s ca l s0 s1 e1 s2 e2 Hp He IH.
    apply execute_action_frame in He. destruct He as (_ & He & _).
    rewrite IH, He, map_app, rev_app_distr, <- app_assoc. f_equal.
    apply pay_fee_ok in Hp. destruct Hp as (base & mult & _ & Hp).
    destruct (action_fee_asset (fst ca)) as [a|].
    + destruct Hp as (_ & _ & _ & -> & ->). reflexivity.
    + destruct Hp as [-> ->]. reflexivity.
Qed.

Lemma fee_log_exact : stmt_fee_log_exact.
Proof.
  unfold stmt_fee_log_exact. intros s c s' evs H.
  apply exec_tx_ok in H. destruct H as (_ & _ & H). apply c01b_exec_actions_bf in H.
  destruct (tx_start_shape s c) as (f & E & _). rewrite E in H. exact H.
Qed.

Example fee_log_exact_nonvacuous :
  exists s' evs,
    exec_tx sample_state (checked sample_state sample_tx1) = (s', OutOk evs) /\
    block_fees s' = [(0, 72); (0, 65); (0, 12)] /\ length evs = 3%nat.
Proof. apply tx_ok_witness. vm_compute. repeat split; reflexivity. Qed.

Lemma fees_routed : stmt_fees_routed.
Proof.
  unfold stmt_fees_routed. intros s s' ds H a.
  apply end_block_ok in H. destruct H as (s1 & Hc & -> & _).
  apply credit_fees_ok in Hc. destruct Hc as [_ Hb]. cbn [bal set_deposits set_block_fees].
  split.
  - rewrite Hb, N.eqb_refl. reflexivity.
  - intros x Hx. apply N.eqb_neq in Hx. rewrite Hb, Hx. lia.
Qed.

Example fees_routed_nonvacuous :
  let s := fst (run sample_state [OpBegin 3 6; OpExec (checked sample_state sample_tx1)]) in
  exists s' ds,
    end_block s = Ok (s', ds) /\
    bf_total (block_fees s) 0 = 149 /\
    bal s (sudo s) 0 = 1000000 /\ bal s' (sudo s) 0 = 1000149 /\ length ds = 1%nat.
Proof. cbv zeta. apply ok_witness2. vm_compute. repeat split; reflexivity. Qed.

(** Also for an asset whose fee-asset status was revoked, in the same block, after the fee was
    paid: the 12 units of asset 1 reach the fee recipient; a further payment in it is refused. *)
Example fees_routed_after_removal_nonvacuous :
  let s := fst (run sample_two_fee_assets sample_ops_fee_asset_removed) in
  fee_assets s = [0] /\
  bf_total (block_fees s) 1 = 12 /\ bal s 4 1 = 488 /\
  snd (exec_tx s (checked s (mk_tx 113 4 1 [ATransfer 5 1 0 1]))) = OutErr EFeeAsset /\
  exists s' ds,
    end_block s = Ok (s', ds) /\
    bal s (sudo s) 1 = 0 /\ bal s' (sudo s) 1 = 12 /\ block_fees s' = [] /\
    supply0 sample_L sample_C s' 1 = supply0 sample_L sample_C sample_two_fee_assets 1.
Proof.
  cbv zeta. repeat (split; [vm_compute; reflexivity|]).
  apply ok_witness2. vm_compute. repeat split; reflexivity.
Qed.
