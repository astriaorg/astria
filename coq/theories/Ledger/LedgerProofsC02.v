(** C02.  A balance is lowered only by a fee or by a move whose source is the signer or a bridge
    account the signer is the withdrawer of; a privileged field is written only by the action
    whose mutable checks compare its holder with the signer. *)
From Astria Require Import Base.Bounded Ledger.LedgerModel Ledger.LedgerSpec Ledger.LedgerLemmas Ledger.LedgerEffect Ledger.LedgerSample.

Lemma c02_exec_debit s signer tx idx ca s' x a :
  execute_action s signer tx idx ca = Ok s' ->
  bal s' x a < bal s x a ->
  x = signer \/ withdrawer_of s x = Some signer.
Proof.
  destruct ca as [act cap]. intros H Hlt.
  apply execute_action_inv in H. destruct H as (Hm & _ & ->).
  change (bal (act_value s signer act cap) x a < bal s x a) in Hlt.
  destruct (act_move signer act cap) as [[[[x0 y] ast] amt]|] eqn:Em.
  - rewrite (act_value_move _ _ _ _ _ _ _ _ Em) in Hlt.
    apply move_lowers_only in Hlt. destruct Hlt as [-> _].
    destruct (act_move_source _ _ _ _ _ _ _ Em) as [->|(ev & blk & Ea)]; [auto|right].
    exact (proj1 (mark_checked _ _ _ _ _ _ Hm Ea)).
  - destruct act; try discriminate Em; cbn [act_value act_move] in Hlt; try lia.
    (* Ics20 *)
    apply (debit_lowers_only s) in Hlt. destruct Hlt as [-> _].
    destruct b as [b|]; [right|left; reflexivity]. destruct memo; [discriminate Hm|].
    exact (proj1 (mark_checked _ _ _ _ _ _ Hm eq_refl)).
Qed.

Lemma c02_fee_exec_debit s signer k fa var pos s0 evs tx idx ca s1 x a :
  pay_fee s signer k fa var pos = Ok (s0, evs) ->
  execute_action s0 signer tx idx ca = Ok s1 ->
  bal s1 x a < bal s x a ->
  x = signer \/ withdrawer_of s x = Some signer.
Proof.
  intros Hp He Hlt. destruct (N.lt_ge_cases (bal s0 x a) (bal s x a)) as [Hc|Hc].
  - left. apply pay_fee_ok in Hp. destruct Hp as (base & mult & _ & Hp). destruct fa as [a0|].
    + destruct Hp as (_ & _ & _ & -> & _). apply (debit_lowers_only (set_block_fees s _)) in Hc. tauto.
    + destruct Hp as [-> _]. lia.
  - apply pay_fee_shape in Hp. destruct Hp as (f & l & ->).
    apply (c02_exec_debit _ _ _ _ _ _ x a He). lia.
Qed.

Lemma debit_needs_authority : stmt_debit_needs_authority.
Proof.
  unfold stmt_debit_needs_authority. intros s signer tx idx ca s' evs x a H Hlt.
  apply pay_fees_and_execute_inv in H. destruct H as (s1 & Hp & He).
  exact (c02_fee_exec_debit _ _ _ _ _ _ _ _ _ _ _ _ _ _ Hp He Hlt).
Qed.

Lemma c02_exec_bridge_same s signer tx idx ca s' :
  action_group (fst ca) <> 3 ->
  execute_action s signer tx idx ca = Ok s' -> bridge s' = bridge s.
Proof.
  destruct ca as [act cap]. cbn [fst]. intros Hg H.
  apply execute_action_inv in H. destruct H as (_ & _ & ->).
  destruct act; try reflexivity; exfalso; apply Hg; reflexivity.
Qed.

Lemma c02_priv_wd s s' y :
  bridge_priv (bridge s' y) = bridge_priv (bridge s y) -> withdrawer_of s' y = withdrawer_of s y.
Proof. unfold withdrawer_of. destruct (bridge s' y), (bridge s y); cbn; congruence. Qed.

Lemma c02_exec_actions_debit signer tx l idx s s' evs :
  Forall (fun ca => action_group (fst ca) <> 3) l ->
  exec_actions s signer tx idx l = Ok (s', evs) ->
  bridge s' = bridge s /\
  (forall x a, bal s' x a < bal s x a -> x = signer \/ withdrawer_of s x = Some signer).
Proof.
  intros HF H. revert l idx s s' evs H HF.
  apply (exec_actions_ind signer tx
    (fun _ s l s' _ =>
       Forall (fun ca => action_group (fst ca) <> 3) l ->
       bridge s' = bridge s /\
       (forall x a, bal s' x a < bal s x a -> x = signer \/ withdrawer_of s x = Some signer))).
  - intros _ s _. split; [reflexivity|intros; lia].
  - intros idx s ca l s0 s1 e1 s2 e2 Hp He IH HF. inversion HF as [|? ? Hg HF']; subst.
    destruct (IH HF') as [Hb2 Hd2].
    assert (Hb1 : bridge s1 = bridge s).
    { rewrite (c02_exec_bridge_same _ _ _ _ _ _ Hg He).
      apply pay_fee_shape in Hp. destruct Hp as (f & l0 & ->). reflexivity. }
    split; [congruence|].
    intros x a Hlt.
    destruct (N.lt_ge_cases (bal s1 x a) (bal s x a)) as [Hc|Hc].
    + exact (c02_fee_exec_debit _ _ _ _ _ _ _ _ _ _ _ _ _ _ Hp He Hc).
    + rewrite <- (c02_priv_wd s s1 x) by (rewrite Hb1; reflexivity). apply (Hd2 x a). lia.
Qed.

Lemma c02_build_group_cases (l : list checked_action) :
  build_group (map fst l) <> None ->
  (exists ca, l = [ca]) \/ Forall (fun ca => action_group (fst ca) <> 3) l.
Proof.
  destruct l as [|ca r]; cbn [map build_group]; intros H; [congruence|].
  destruct r as [|cb r']; [left; eauto|right].
  cbv zeta in H. cbn [map] in H.
  destruct (group_bundleable (action_group (fst ca))) eqn:Eb; cbn [negb andb] in H;
    [|congruence].
  destruct (forallb _ _) eqn:Ef in H; [|congruence].
  assert (Hg : action_group (fst ca) <> 3).
  { intros E. rewrite E in Eb. discriminate Eb. }
  constructor; [exact Hg|].
  rewrite forallb_forall in Ef.
  apply Forall_forall. intros y Hy.
  assert (Hin : In (fst y) (fst cb :: map fst r')).
  { change (In (fst y) (map fst (cb :: r'))). apply in_map. exact Hy. }
  specialize (Ef _ Hin). apply N.eqb_eq in Ef. congruence.
Qed.

(** A transaction that passed the group rules is a single action, or has no action of group 3:
    then the withdrawers are those of the state before it ([c02_exec_actions_debit]). *)
Lemma tx_debit_needs_authority : stmt_tx_debit_needs_authority.
Proof.
  unfold stmt_tx_debit_needs_authority. intros s c s' evs x a Hbg H Hlt.
  apply exec_tx_ok in H. destruct H as (_ & _ & H).
  destruct (tx_start_shape s c) as (f & E & Hf).
  assert (Hw : withdrawer_of (tx_start s c) x = withdrawer_of s x)
    by (apply c02_priv_wd; rewrite E; apply Hf).
  assert (Hb : bal (tx_start s c) = bal s) by (rewrite E; reflexivity).
  rewrite <- Hb in Hlt. rewrite <- Hw.
  destruct (c02_build_group_cases _ Hbg) as [[ca Hl]|HF].
  - rewrite Hl in H. cbn [exec_actions] in H.
    apply bind_ok in H. destruct H as [[s1 e1] [H1 H]].
    cbn [bind] in H. inversion H; subst; clear H.
    eapply debit_needs_authority; eauto.
  - destruct (c02_exec_actions_debit _ _ _ _ _ _ _ HF H) as [_ Hd]. apply (Hd x a Hlt).
Qed.

Lemma blocks_never_debit : stmt_blocks_never_debit.
Proof.
  unfold stmt_blocks_never_debit. intros s bbh h x a. split; [reflexivity|].
  intros s' ds H. apply end_block_ok in H. destruct H as (s1 & Hc & -> & _).
  apply credit_fees_ok in Hc. destruct Hc as [_ Hb].
  cbn [bal set_deposits set_block_fees]. rewrite Hb. lia.
Qed.

Lemma privileged_untouched_elsewhere : stmt_privileged_untouched_elsewhere.
Proof.
  unfold stmt_privileged_untouched_elsewhere. split; [|split; [|split; [|split]]].
  - intros s signer k fa var pos s' evs H.
    apply pay_fee_shape in H. destruct H as (f & l & ->). unfold priv_equal. repeat split.
  - intros s x t. destruct (put_lasttx_shape s x t) as (f & -> & Hf).
    unfold priv_equal. repeat split. apply Hf.
  - intros s bbh h. unfold priv_equal. repeat split.
  - intros s s' ds H. apply end_block_ok in H. destruct H as (s1 & Hc & -> & _).
    apply credit_fees_ok in Hc. destruct Hc as [[f ->] _]. unfold priv_equal. repeat split.
  - intros s c s' e H. apply exec_tx_err in H. tauto.
Qed.

Definition c02_held (s s' : state) (signer : addr) : Prop :=
  (sudo s = signer \/
   (sudo s' = sudo s /\ ibc_sudo s' = ibc_sudo s /\ fees s' = fees s /\
    fee_assets s' = fee_assets s /\ validators s' = validators s /\ valcount s' = valcount s)) /\
  (ibc_sudo s = signer \/ relayer s' = relayer s) /\
  (forall b, bridge s' b = bridge s b \/
             bridge_sudo_of s b = Some signer \/ (bridge s b = None /\ b = signer)).

Lemma c02_holder {A} (x signer : addr) (k : result A) e r :
  (check (x =? signer) else e; k) = Ok r -> x = signer.
Proof. intros H. apply check_ok in H. destruct H as [H _]. apply N.eqb_eq. exact H. Qed.

Lemma c02_exec_priv s signer tx idx ca s' :
  execute_action s signer tx idx ca = Ok s' -> c02_held s s' signer.
Proof.
  destruct ca as [act cap]. intros H.
  apply execute_action_inv in H. destruct H as (Hm & _ & ->).
  (* an action writing a field guarded by the (ibc) sudo address begins its mutable checks by
     comparing that address with the signer *)
  destruct act; cbn [mutable_checks] in Hm; (split; [|split]); auto 8;
    try (apply c02_holder in Hm; auto; fail).
  - (* InitBridge: the signer had no bridge entry *)
    apply check_ok in Hm. destruct Hm as [Hnb _]. unfold is_bridge in Hnb.
    intros b. cbn. unfold upd1. destruct (N.eqb_spec b signer) as [->|]; [right; right|auto].
    destruct (bridge s signer); [discriminate Hnb|auto].
  - (* BSudo: the signer is the bridge's sudo address *)
    destruct (bridge_sudo_of s b) as [sd|] eqn:Esd; [|discriminate Hm].
    apply check_ok in Hm. destruct Hm as [_ Hm]. apply c02_holder in Hm. subst sd.
    intros b0. cbn. destruct (bridge s b); [|auto].
    unfold upd1. destruct (N.eqb_spec b0 b) as [->|]; auto.
Qed.

Lemma privileged_write_needs_holder : stmt_privileged_write_needs_holder.
Proof.
  unfold stmt_privileged_write_needs_holder. intros s signer tx idx ca s' evs H.
  apply pay_fees_and_execute_inv in H. destruct H as (s1 & Hp & He).
  apply pay_fee_shape in Hp. destruct Hp as (f & l & ->).
  apply c02_exec_priv in He. destruct He as (H1 & H2 & H3). cbn in H1, H2, H3.
  assert (G1 : forall P : Prop,
             (sudo s' = sudo s -> ibc_sudo s' = ibc_sudo s -> fees s' = fees s ->
              fee_assets s' = fee_assets s -> validators s' = validators s ->
              valcount s' = valcount s -> ~ P) -> P -> sudo s = signer).
  { intros P HP p. destruct H1 as [|(E1 & E2 & E3 & E4 & E5 & E6)]; [assumption|].
    destruct (HP E1 E2 E3 E4 E5 E6 p). }
  refine (conj _ (conj _ (conj _ (conj _ (conj _ (conj _ _)))))).
  - apply G1. intros E _ _ _ _ _ Hc. exact (Hc E).
  - apply G1. intros _ E _ _ _ _ Hc. exact (Hc E).
  - intros [x Hc]. destruct H2 as [|E]; [assumption|]. rewrite E in Hc. destruct (Hc eq_refl).
  - apply G1. intros _ _ E _ _ _ [k Hc]. rewrite E in Hc. exact (Hc eq_refl).
  - apply G1. intros _ _ _ E _ _ Hc. exact (Hc E).
  - apply G1. intros _ _ _ _ E5 E6 [[k Hc]|Hc]; [rewrite E5 in Hc; exact (Hc eq_refl)|exact (Hc E6)].
  - intros b Hc. destruct (H3 b) as [E|H]; [|exact H]. rewrite E in Hc. destruct (Hc eq_refl).
Qed.

Lemma c02_mutable_bridge_source s signer a :
  is_bridge s signer = true ->
  (match a with
   | ATransfer _ _ _ _ | ALock _ _ _ _ _ _ _ _ | AIcs20 _ _ _ _ _ None _ => True
   | _ => False
   end) ->
  mutable_checks s signer a = Err EBridge.
Proof.
  intros Hb Ha. destruct a; try contradiction.
  - cbn [mutable_checks]. rewrite Hb. reflexivity.
  - cbn [mutable_checks]. unfold lock_mutable. rewrite Hb. reflexivity.
  - destruct b; [contradiction|]. cbn [mutable_checks]. rewrite Hb. destruct memo; reflexivity.
Qed.

Lemma bridge_source_rules : stmt_bridge_source_rules.
Proof.
  unfold stmt_bridge_source_rules. intros s signer tx idx a cap Hb Ha.
  pose proof (c02_mutable_bridge_source s signer a Hb Ha) as Hm.
  split.
  - unfold execute_action. rewrite Hm. cbn [bind]. eexists; reflexivity.
  - destruct a; try contradiction.
    + cbn [construct_action]. rewrite Hm. eexists; reflexivity.
    + cbn [construct_action].
      destruct (bridge s to) as [br|]; [|eexists; reflexivity].
      destruct (br_asset br =? a); [|eexists; reflexivity].
      destruct (negb a_is_ibc || known_assets s a); [|eexists; reflexivity].
      rewrite Hm. eexists; reflexivity.
    + destruct b; [contradiction|]. cbn [construct_action].
      destruct (0 <? amt); [|eexists; reflexivity].
      rewrite Hm. destruct memo; eexists; reflexivity.
Qed.

(** the withdrawer 3 unlocks from the bridge account 6: a debit of an account other than the
    signer, authorised by [withdrawer_of]. *)
Example debit_needs_authority_nonvacuous :
  match pay_fees_and_execute sample_state 3 102 0 (AUnlock 5 70 0 6 0 12 9 2, CapUnlock 0) with
  | Ok (s', _) => (bal s' 6 0 <? bal sample_state 6 0) && (bal s' 3 0 <? bal sample_state 3 0)
  | Err _ => false
  end = true /\ withdrawer_of sample_state 6 = Some 3.
Proof. vm_compute. split; reflexivity. Qed.

Example tx_debit_needs_authority_nonvacuous :
  build_group (map fst (ct_actions (checked sample_state sample_tx2))) = Some 4 /\
  match exec_tx sample_state (checked sample_state sample_tx2) with
  | (s', OutOk _) => bal s' 6 0 <? bal sample_state 6 0
  | _ => false
  end = true /\
  withdrawer_of sample_state 6 = Some (ct_signer (checked sample_state sample_tx2)).
Proof. vm_compute. repeat split; reflexivity. Qed.

(** the block of [sample_ops] up to (excluding) its end: ending it credits the sudo account 0 *)
Example blocks_never_debit_nonvacuous :
  let s := fst (run sample_state (firstn 5 sample_ops)) in
  match end_block s with
  | Ok (s', _) => (bal s 0 0 <? bal s' 0 0) && (bal s' 4 0 =? bal s 4 0)
  | Err _ => false
  end = true.
Proof. vm_compute. reflexivity. Qed.

(** the sudo address changes a fee; the bridge sudo 2 changes the withdrawer of bridge 6 *)
Example privileged_write_needs_holder_nonvacuous :
  match pay_fees_and_execute sample_state 0 105 0 (AFeeChange KTransfer 7 0, CapNone) with
  | Ok (s', _) => fees s' KTransfer
  | Err _ => None
  end = Some (7, 0) /\ fees sample_state KTransfer = Some (12, 0) /\ sudo sample_state = 0 /\
  match pay_fees_and_execute sample_state 2 106 0 (ABSudo 6 None (Some 7) 0 true, CapNone) with
  | Ok (s', _) => withdrawer_of s' 6
  | Err _ => None
  end = Some 7 /\ withdrawer_of sample_state 6 = Some 3 /\ bridge_sudo_of sample_state 6 = Some 2.
Proof. vm_compute. repeat split; reflexivity. Qed.

Example privileged_untouched_elsewhere_nonvacuous :
  (exists s' evs, pay_fee sample_state 4 KTransfer (Some 0) 0 0 = Ok (s', evs) /\
                  bal s' 4 0 = 999988) /\
  (exists e, snd (exec_tx sample_state (checked sample_state sample_tx_fail)) = OutErr e) /\
  (exists ds, match end_block (fst (run sample_state (firstn 5 sample_ops))) with
              | Ok (_, d) => d | Err _ => [] end = ds /\ ds <> []) /\
  br_lasttx sample_bridge = None /\
  match bridge (put_lasttx sample_state 6 7) 6 with Some br => br_lasttx br | None => None end
  = Some 7.
Proof.
  split; [|split; [|split; [|split]]].
  - apply ok_witness2. vm_compute. reflexivity.
  - vm_compute. eexists; reflexivity.
  - vm_compute. eexists; split; [reflexivity|discriminate].
  - reflexivity.
  - vm_compute. reflexivity.
Qed.

(** the bridge account 6 as source *)
Example bridge_source_rules_nonvacuous :
  is_bridge sample_state 6 = true /\
  execute_action sample_state 6 1 0 (ATransfer 5 10 0 0, CapNone) = Err EBridge /\
  construct_action sample_state 6 (ATransfer 5 10 0 0) = Err EBridge /\
  construct_action sample_state 6 (ALock 6 10 0 false 4 0 7 10) = Err EBridge /\
  construct_action sample_state 6 (AIcs20 30 0 false 0 0 None MemoBad) = Err EBridge /\
  (exists ca, construct_action sample_state 4 (ATransfer 5 10 0 0) = Ok ca).
Proof. vm_compute. repeat split; try reflexivity. eexists; reflexivity. Qed.

