(** Inversion of [bind] and [check], point updates and sums under them; last, that a failing
    IbcRelay action never executes. *)
From Astria Require Import Base.Bounded Ledger.LedgerModel Ledger.LedgerSpec.

Lemma bind_ok {A B} (r : result A) (f : A -> result B) b :
  bind r f = Ok b -> exists a, r = Ok a /\ f a = Ok b.
Proof. destruct r; cbn; intros H; [eauto|discriminate]. Qed.

Lemma check_ok {A} (c : bool) (e : eclass) (k : result A) b :
  (if c then k else Err e) = Ok b -> c = true /\ k = Ok b.
Proof. destruct c; intros H; [auto|discriminate]. Qed.

Lemma upd2_same {V} (f : N -> N -> V) k1 k2 v : upd2 f k1 k2 v k1 k2 = v.
Proof. unfold upd2. rewrite !N.eqb_refl. reflexivity. Qed.

Lemma upd2_other {V} (f : N -> N -> V) k1 k2 v x y :
  (x, y) <> (k1, k2) -> upd2 f k1 k2 v x y = f x y.
Proof.
  unfold upd2. intros H. destruct (N.eqb_spec x k1), (N.eqb_spec y k2); cbn; try reflexivity.
  subst. congruence.
Qed.

Lemma upd2_other_asset {V} (f : N -> N -> V) k1 k2 v x y :
  y <> k2 -> upd2 f k1 k2 v x y = f x y.
Proof. intros H. apply upd2_other. congruence. Qed.

Lemma upd1_same {V} (f : N -> V) k v : upd1 f k v k = v.
Proof. unfold upd1. rewrite N.eqb_refl. reflexivity. Qed.

Lemma upd1_other {V} (f : N -> V) k v x : x <> k -> upd1 f k v x = f x.
Proof. unfold upd1. intros H. destruct (N.eqb_spec x k); [congruence|reflexivity]. Qed.

Lemma sum_over_ext L f g : (forall x, In x L -> f x = g x) -> sum_over L f = sum_over L g.
Proof.
  unfold sum_over. induction L as [|y L IH]; cbn [map sumN]; intros H; [reflexivity|].
  rewrite (H y (or_introl eq_refl)), IH; [reflexivity|]. intros x Hx. apply H. right; exact Hx.
Qed.

Lemma sum_over_upd_notin L (f : N -> N) k v :
  ~ In k L -> sum_over L (fun x => if x =? k then v else f x) = sum_over L f.
Proof.
  intros H. apply sum_over_ext. intros x Hx. destruct (N.eqb_spec x k); [subst; contradiction|reflexivity].
Qed.

Lemma sum_over_upd_in L (f : N -> N) k v :
  NoDup L -> In k L ->
  sum_over L (fun x => if x =? k then v else f x) + f k = sum_over L f + v.
Proof.
  unfold sum_over. induction L as [|y L IH]; intros Hnd Hin; [destruct Hin|].
  inversion Hnd as [|? ? Hny Hnd']; subst. cbn [map sumN].
  destruct Hin as [->|Hin].
  - rewrite N.eqb_refl.
    pose proof (sum_over_upd_notin L f k v Hny) as E. unfold sum_over in E. rewrite E. lia.
  - destruct (N.eqb_spec y k) as [->|Hne]; [contradiction|].
    specialize (IH Hnd' Hin). lia.
Qed.

Lemma sum_over_ge L (f : N -> N) k : In k L -> f k <= sum_over L f.
Proof.
  unfold sum_over. induction L as [|y L IH]; intros Hin; [destruct Hin|]. cbn [map sumN].
  destruct Hin as [->|Hin]; [lia|]. specialize (IH Hin). lia.
Qed.

(** A failing IbcRelay action never executes, so it is never part of an executed transaction. *)
Lemma pfe_relay_failing_never_ok s signer tx idx ca k r :
  fst ca = AIbcRelayFailing k -> pay_fees_and_execute s signer tx idx ca = Ok r -> False.
Proof.
  intros Ea H. unfold pay_fees_and_execute in H. cbv zeta in H. rewrite Ea in H.
  apply bind_ok in H. destruct H as [[s1 e1] [_ H]].
  destruct (execute_action s1 signer tx idx ca) as [s2|e] eqn:E; [|discriminate H].
  destruct ca as [a cap]. cbn [fst] in Ea. subst a. unfold execute_action in E.
  apply bind_ok in E. destruct E as [u [_ E]]. discriminate E.
Qed.
