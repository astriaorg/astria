(** C05 -- proofs of the statements of [AbciSpec].  An invariant along the rounds of one height
    says what the application can have cached; FinalizeBlock on such a cached execution has the
    value it has on the committed state. *)
From Astria Require Import Base.Bounded Abci.AbciModel Abci.AbciSpec
  Abci.AbciLemmasOracle Abci.AbciLemmasComm Abci.AbciLemmasLoops.
From Coq Require Import Permutation.

#[local] Arguments a_committed {L R} a.
#[local] Arguments a_working {L R} a.
#[local] Arguments a_exec {L R} a.
#[local] Arguments a_staged {L R} a.
#[local] Arguments w_s {L R} w.
#[local] Arguments w_executed {L R} w.
#[local] Arguments w_result {L R} w.

Lemma check_prepared_cases {P} (p_eqb : P -> P -> bool) (s : exec_state P) req :
  (exists c, (s = Prepared c \/ s = PreparedValid c) /\
     check_if_prepared_proposal p_eqb s req =
     if p_eqb c req then (PreparedValid c, true) else (CheckedPreparedMismatch c, false)) \/
  ((forall c, s <> Prepared c) /\ check_if_prepared_proposal p_eqb s req = (s, false)).
Proof.
  destruct s as [|c|c|c|h c|h c]; cbn [check_if_prepared_proposal]; eauto;
    right; (split; [discriminate|reflexivity]).
Qed.

Lemma checked_not_prepared {P T} (p_eqb : P -> P -> bool) s req e1 skip (A : P -> T) (B : T) :
  check_if_prepared_proposal p_eqb s req = (e1, skip) ->
  match e1 with Prepared p => A p | _ => B end = B.
Proof.
  destruct (check_prepared_cases p_eqb s req) as [(c & _ & ->)|[Hn ->]].
  - destruct (p_eqb c req); intros E; injection E as <- _; reflexivity.
  - intros E; injection E as <- _. destruct s; try reflexivity. destruct (Hn p eq_refl).
Qed.

Lemma esm_skip_sound : stmt_esm_skip_sound.
Proof.
  unfold stmt_esm_skip_sound. intros P p_eqb s. split.
  - intros h. destruct s as [|q|q|q|ch cp|ch cp]; cbn [check_if_executed_block fst snd];
      try discriminate.
    destruct (N.eqb_spec h ch) as [->|Hne]; cbn [fst snd]; [|discriminate].
    intros _. exists cp. split; reflexivity.
  - intros req.
    destruct (check_prepared_cases p_eqb s req) as [(q & Hs & ->)|[_ ->]]; [|discriminate].
    destruct (p_eqb q req) eqn:E; [|discriminate].
    intros _. exists q. split; [exact Hs|]. split; [exact E|reflexivity].
Qed.

Section Final.
  Variable L R : Type.
  Variable l_pre : L -> bmeta -> L.
  Variable l_check : L -> tx -> bool.
  Variable l_exec : L -> tx -> xres L.
  Variable l_post : L -> N -> bmeta -> L * R.
  Variable commit_of : L -> list tx -> list N.
  Variable uh_at : bmeta -> N.
  Variable height_of : bmeta -> N.

  Notation State := (state L).
  Notation App := (app L R).
  Notation Init := (init_app L R).
  Notation New_round := (new_round L R).
  Notation With_exec := (with_exec L R).
  Notation Process_loop := (process_loop L l_exec).
  Notation Finalize_loop := (finalize_loop L l_exec).
  Notation Check_tx := (check_tx L l_check).
  Notation Pre_exec := (pre_exec L l_pre).
  Notation Finalize := (finalize L R l_pre l_check l_exec l_post commit_of uh_at height_of).
  Notation Decide := (decide L R l_pre l_check l_exec l_post commit_of uh_at height_of).
  Notation Rounds := (rounds L R l_pre l_check l_exec l_post commit_of uh_at).
  Notation Round_blocks := (round_blocks L R l_pre l_exec commit_of uh_at).
  Notation Legal := (legal L R l_pre l_check l_exec commit_of uh_at).
  Notation Prepare_loop := (prepare_loop L l_exec).
  Notation Prepare := (prepare L R l_pre l_exec commit_of uh_at).
  Notation Process := (process L R l_pre l_check l_exec l_post commit_of uh_at).
  Notation Post_exec := (post_exec L R l_post commit_of).
  Notation Round_step := (round_step L R l_pre l_check l_exec l_post commit_of uh_at).
  Notation Mempool_fresh := (mempool_fresh L l_pre l_check).

  Definition dec_out (x : App * outcome L R) : outcome L R * option State :=
    let (a1, o) := x in
    match o with
    | OFinalized _ _ _ _ _ => (o, Some (a_committed (fst (commit L R a1))))
    | _ => (o, None)
    end.

  Lemma decide_dec_out a rs D : Decide a rs D = dec_out (Finalize (Rounds a rs) D).
  Proof. reflexivity. Qed.

  Variable c : State.

  (** the working state holds the result of ProcessProposal of block [B] on [c] *)
  Definition Cached (w : wstate L R) (B : block) : Prop :=
    d_wf (b_data B) = true /\
    N.eqb (d_uh (b_data B)) (uh_at (b_meta B)) = true /\
    forallb (Check_tx (Pre_exec c (b_meta B))) (d_txs (b_data B)) = true /\
    exists sf ex,
      Process_loop (Pre_exec c (b_meta B)) GROUP_TOP (d_txs (b_data B)) = (sf, inl ex) /\
      list_eqb N.eqb (d_commit (b_data B)) (commit_of (s_l sf) (d_txs (b_data B))) = true /\
      w_s w = {| s_l := fst (l_post (s_l sf) (b_hash B) (b_meta B)); s_o := s_o sf |} /\
      w_result w = Some (ex, snd (l_post (s_l sf) (b_hash B) (b_meta B))).

  (** the working state and the proposal are what PrepareProposal makes of a fresh mempool *)
  Definition PreparedBy (w : wstate L R) (p : proposal) : Prop :=
    exists mem prices sf inc,
      forallb (Check_tx (Pre_exec c (fst p))) mem = true /\
      Prepare_loop (Pre_exec c (fst p)) GROUP_TOP mem = (sf, inc) /\
      snd p = {| d_wf := true; d_ecvalid := true; d_prices := prices; d_uh := uh_at (fst p);
                 d_commit := commit_of (s_l sf) (map fst inc); d_txs := map fst inc |} /\
      w = {| w_s := sf; w_executed := Some inc; w_result := None |}.

  Definition Inv (shown : list block) (a : App) : Prop :=
    a_committed a = c /\ a_staged a = None /\
    match a_exec a with
    | ExecutedBlock hh _ => exists B, In B shown /\ b_hash B = hh /\ Cached (a_working a) B
    | Prepared p | PreparedValid p => PreparedBy (a_working a) p
    | _ => True
    end.

  Lemma Inv_mono bs bs' a : incl bs bs' -> Inv bs a -> Inv bs' a.
  Proof.
    intros Hi (Hc & Hs & He). split; [exact Hc|]. split; [exact Hs|].
    destruct (a_exec a); try exact He.
    destruct He as (B & HB & Hh & HC). exists B.
    split; [apply Hi; exact HB|]. split; [exact Hh|exact HC].
  Qed.

  Lemma Inv_unset bs (a : App) :
    a_committed a = c -> a_staged a = None -> a_exec a = Unset -> Inv bs a.
  Proof. intros Hc Hs He. split; [exact Hc|]. split; [exact Hs|]. rewrite He. exact I. Qed.

  Lemma Inv_init bs : Inv bs (Init c).
  Proof. apply Inv_unset; reflexivity. Qed.

  Lemma new_round_init (a : App) :
    a_committed a = c -> a_staged a = None -> New_round a = Init c.
  Proof. destruct a as [ac aw ae ast]; cbn; intros -> ->. reflexivity. Qed.

  Lemma prepare_eq_init (a : App) m mem prices :
    a_committed a = c -> a_staged a = None -> Prepare a m mem prices = Prepare (Init c) m mem prices.
  Proof.
    intros Hc Hs. change (Prepare a m mem prices) with (Prepare (New_round a) m mem prices).
    rewrite new_round_init by assumption. reflexivity.
  Qed.

  Lemma prepare_init_inv m mem prices :
    forallb (Check_tx (Pre_exec c m)) mem = true ->
    exists a1 d, Prepare (Init c) m mem prices = (a1, OPrepared L R d) /\ (forall bs, Inv bs a1) /\
                 a_exec a1 = Prepared (m, d).
  Proof.
    intros Hm. unfold prepare. cbn [new_round init_app a_committed a_exec a_staged].
    destruct (Prepare_loop (Pre_exec c m) GROUP_TOP mem) as [sf inc] eqn:EP.
    cbn [set_prepared_proposal]. eexists; eexists. split; [reflexivity|].
    split; [|reflexivity]. intros bs.
    split; [reflexivity|]. split; [reflexivity|].
    cbn [with_exec with_working a_exec a_working].
    exists mem, prices, sf, inc. cbn [fst snd]. repeat split; assumption.
  Qed.

  Lemma check_prepared_inv bs (a : App) req e1 skip :
    check_if_prepared_proposal proposal_eqb (a_exec a) req = (e1, skip) ->
    Inv bs a -> Inv bs (With_exec a e1).
  Proof.
    intros EC (Hc & Hs & He). split; [exact Hc|]. split; [exact Hs|].
    cbn [with_exec a_exec a_working].
    destruct (check_prepared_cases proposal_eqb (a_exec a) req) as [(p & Ha & E)|[_ E]];
      rewrite E in EC; [|injection EC as <- _; exact He].
    destruct (proposal_eqb p req); injection EC as <- _; [|exact I].
    destruct Ha as [Ha|Ha]; rewrite Ha in He; exact He.
  Qed.

  Lemma check_prepared_skip bs (a : App) req e1 :
    check_if_prepared_proposal proposal_eqb (a_exec a) req = (e1, true) ->
    Inv bs a -> e1 = PreparedValid req /\ PreparedBy (a_working a) req.
  Proof.
    intros EC (_ & _ & He).
    destruct (proj2 (esm_skip_sound _ proposal_eqb (a_exec a)) req) as (p & Ha & E & Ef);
      [rewrite EC; reflexivity|].
    rewrite EC in Ef. apply proposal_eqb_iff in E; subst p. split; [exact Ef|].
    destruct Ha as [Ha|Ha]; rewrite Ha in He; exact He.
  Qed.

  Lemma post_exec_ok (a : App) b ex e' :
    set_executed_block (a_exec a) (b_hash b) = Some e' ->
    list_eqb N.eqb (d_commit (b_data b)) (commit_of (s_l (w_s (a_working a))) (map fst ex)) = true ->
    Post_exec a b ex =
    ({| a_committed := a_committed a;
        a_working :=
          {| w_s := {| s_l := fst (l_post (s_l (w_s (a_working a))) (b_hash b) (b_meta b));
                       s_o := s_o (w_s (a_working a)) |};
             w_executed := w_executed (a_working a);
             w_result := Some (ex, snd (l_post (s_l (w_s (a_working a))) (b_hash b) (b_meta b))) |};
        a_exec := e'; a_staged := a_staged a |}, None).
  Proof.
    intros E1 E2. unfold post_exec. rewrite E1, E2. destruct (l_post _ _ _); reflexivity.
  Qed.

  Lemma process_nonskip_eq (a : App) b e1 :
    a_committed a = c -> a_staged a = None ->
    check_if_prepared_proposal proposal_eqb (a_exec a) (b_meta b, b_data b) = (e1, false) ->
    d_wf (b_data b) = true ->
    Process a b = Process (Init c) b.
  Proof.
    intros Hc Hs EC EW. unfold process. rewrite EC.
    cbn [init_app a_exec check_if_prepared_proposal].
    rewrite (checked_not_prepared _ _ _ _ _ _ _ EC), EW. cbn [negb].
    rewrite (new_round_init (With_exec a e1)) by (cbn [with_exec a_committed a_staged]; assumption).
    reflexivity.
  Qed.

  Lemma process_init_inv bs b : In b bs -> Inv bs (fst (Process (Init c) b)).
  Proof.
    intros Hb. unfold process.
    cbn [init_app a_exec check_if_prepared_proposal new_round with_exec a_committed a_staged].
    destruct (d_wf (b_data b)) eqn:EW; cbn [negb]; [|apply Inv_unset; reflexivity].
    destruct (d_ecvalid (b_data b)) eqn:EE; cbn [negb]; [|apply Inv_unset; reflexivity].
    destruct (d_uh (b_data b) =? uh_at (b_meta b)) eqn:EU; cbn [negb]; [|apply Inv_unset; reflexivity].
    destruct (forallb (Check_tx (Pre_exec c (b_meta b))) (d_txs (b_data b))) eqn:EF;
      cbn [negb]; [|apply Inv_unset; reflexivity].
    destruct (Process_loop (Pre_exec c (b_meta b)) GROUP_TOP (d_txs (b_data b)))
      as [sf [ex|e]] eqn:EP; [|apply Inv_unset; reflexivity].
    destruct (list_eqb N.eqb (d_commit (b_data b)) (commit_of (s_l sf) (d_txs (b_data b))))
      eqn:EM; cbn [negb]; [|apply Inv_unset; reflexivity].
    destruct (process_finalize _ _ _ _ _ _ _ EP) as [_ Hmap].
    rewrite (post_exec_ok _ b ex (ExecutedBlock (b_hash b) None));
      [|reflexivity|cbn [with_working a_working fresh w_s]; rewrite Hmap; exact EM].
    split; [reflexivity|]. split; [reflexivity|].
    exists b. split; [exact Hb|]. split; [reflexivity|].
    split; [exact EW|]. split; [exact EU|]. split; [exact EF|].
    exists sf, ex. split; [exact EP|]. split; [exact EM|]. split; reflexivity.
  Qed.

  Lemma process_skip_inv bs (a : App) b e1 :
    Inv bs a -> In b bs ->
    check_if_prepared_proposal proposal_eqb (a_exec a) (b_meta b, b_data b) = (e1, true) ->
    d_wf (b_data b) = true ->
    Inv bs (fst (Process a b)).
  Proof.
    intros HI Hb EC EW.
    destruct (check_prepared_skip bs a _ e1 EC HI) as [-> HP].
    destruct HI as (Hc & Hs & _).
    destruct HP as (mem & prices & sf & inc & Hm & EPL & Hd & Hw). cbn [fst snd] in Hm, EPL, Hd.
    destruct (prepare_process _ _ _ _ _ _ _ EPL) as [EPr Hincl].
    assert (EM : list_eqb N.eqb (d_commit (b_data b)) (commit_of (s_l sf) (map fst inc)) = true)
      by (rewrite Hd; apply listN_eqb_iff; reflexivity).
    unfold process. rewrite EC. cbv beta iota zeta. rewrite EW. cbn [negb].
    cbn [with_exec a_working a_exec]. rewrite Hw. cbn [w_executed].
    rewrite (post_exec_ok _ b inc (ExecutedBlock (b_hash b) (Some (b_meta b, b_data b))));
      [|reflexivity|cbn [with_exec a_working]; rewrite Hw; exact EM].
    cbn [with_exec a_working a_committed a_staged]. rewrite Hw. cbn [w_s w_executed s_l s_o].
    split; [exact Hc|]. split; [exact Hs|].
    exists b. split; [exact Hb|]. split; [reflexivity|]. split; [exact EW|].
    rewrite Hd. cbn [d_uh d_txs d_commit].
    split; [apply N.eqb_refl|].
    split; [apply forallb_forall; intros t Ht; rewrite forallb_forall in Hm; apply Hm, Hincl, Ht|].
    exists sf, inc. split; [exact EPr|]. split; [apply listN_eqb_iff; reflexivity|].
    split; reflexivity.
  Qed.

  Lemma process_inv bs (a : App) b : Inv bs a -> In b bs -> Inv bs (fst (Process a b)).
  Proof.
    intros HI Hb.
    destruct (check_if_prepared_proposal proposal_eqb (a_exec a) (b_meta b, b_data b))
      as [e1 skip] eqn:EC.
    destruct (d_wf (b_data b)) eqn:EW.
    - destruct skip.
      + eapply process_skip_inv; eassumption.
      + destruct HI as (Hc & Hs & _).
        rewrite (process_nonskip_eq a b e1 Hc Hs EC EW). apply process_init_inv, Hb.
    - unfold process. rewrite EC. cbv beta iota zeta.
      rewrite (checked_not_prepared _ _ _ _ _ _ _ EC), EW. cbn [negb fst].
      exact (check_prepared_inv bs a _ e1 skip EC HI).
  Qed.

  Lemma round_step_inv bs (a : App) r :
    Inv bs a -> Mempool_fresh c r -> Inv (bs ++ Round_blocks c r) (Round_step a r).
  Proof.
    intros HI Hf. destruct r as [m mem prices own|b|]; cbn [round_step round_blocks mempool_fresh] in *.
    - destruct HI as (Hc & Hs & _). rewrite (prepare_eq_init a m mem prices Hc Hs).
      destruct (prepare_init_inv m mem prices Hf) as (a1 & d & EPr & HI1 & _). rewrite EPr.
      destruct own as [hh|].
      + apply process_inv; [apply HI1|]. apply in_or_app; right; left; reflexivity.
      + apply HI1.
    - apply process_inv; [|apply in_or_app; right; left; reflexivity].
      eapply Inv_mono; [|exact HI]. apply incl_appl, incl_refl.
    - destruct HI as (Hc & _). cbn [restart fst]. rewrite Hc. apply Inv_init.
  Qed.

  Lemma rounds_inv : forall rs bs (a : App),
    Inv bs a -> Forall (Mempool_fresh c) rs ->
    Inv (bs ++ flat_map (Round_blocks c) rs) (Rounds a rs).
  Proof.
    unfold rounds. induction rs as [|r rs IH]; intros bs a HI HF; cbn [fold_left flat_map].
    - rewrite app_nil_r. exact HI.
    - inversion HF as [|? ? Hr Hrs]; subst. rewrite app_assoc. apply IH; [|exact Hrs].
      apply round_step_inv; assumption.
  Qed.
  Lemma finalize_nonskip_eq (a : App) D :
    a_committed a = c -> a_staged a = None ->
    snd (check_if_executed_block (a_exec a) (b_hash D)) = false ->
    Finalize a D = Finalize (Init c) D.
  Proof.
    intros Hc Hs Hk. unfold finalize.
    destruct (check_if_executed_block (a_exec a) (b_hash D)) as [e1 skip].
    cbn [snd] in Hk; subst skip.
    change (a_exec (Init c)) with (@Unset proposal). cbn [check_if_executed_block].
    change (New_round (With_exec (Init c) Unset)) with (Init c).
    rewrite (new_round_init (With_exec a e1))
      by (cbn [with_exec a_committed a_staged]; assumption).
    reflexivity.
  Qed.

  Lemma finalize_init_value D :
    d_wf (b_data D) = true -> N.eqb (d_uh (b_data D)) (uh_at (b_meta D)) = true ->
    dec_out (Finalize (Init c) D) =
    match apply_prices (s_o c) (d_prices (b_data D)) (height_of (b_meta D)) with
    | None => (OErr L R EPutPrice, None)
    | Some o1 =>
        let s1 := Pre_exec {| s_l := s_l c; s_o := o1 |} (b_meta D) in
        if forallb (Check_tx s1) (d_txs (b_data D)) then
          let (sf1, ex) := Finalize_loop s1 (d_txs (b_data D)) in
          let (l', r) := l_post (s_l sf1) (b_hash D) (b_meta D) in
          if list_eqb N.eqb (d_commit (b_data D)) (commit_of (s_l sf1) (map fst ex))
          then (OFinalized L R (map (fun e => (tx_id (fst e), snd e)) ex) r {| s_l := l'; s_o := s_o sf1 |},
                Some {| s_l := l'; s_o := s_o sf1 |})
          else (OErr L R ESeqBlock, None)
        else (OErr L R EConstruct, None)
    end.
  Proof.
    intros EW EU. unfold finalize.
    change (a_exec (Init c)) with (@Unset proposal). cbn [check_if_executed_block].
    change (New_round (With_exec (Init c) Unset)) with (Init c).
    rewrite EW. cbn [negb init_app a_working fresh w_s].
    destruct (apply_prices (s_o c) (d_prices (b_data D)) (height_of (b_meta D))) as [o1|];
      [|reflexivity].
    cbn [with_state w_s s_l]. rewrite EU. cbn [negb].
    destruct (forallb _ (d_txs (b_data D))); cbn [negb]; [|reflexivity].
    destruct (Finalize_loop _ (d_txs (b_data D))) as [sf1 ex]. unfold post_exec.
    cbn [with_working with_exec a_exec a_working set_executed_block with_state w_s s_l].
    destruct (l_post (s_l sf1) (b_hash D) (b_meta D)) as [l' r].
    destruct (list_eqb N.eqb _ _); reflexivity.
  Qed.

  Lemma finalize_cached_value D p ws wex ex r :
    d_wf (b_data D) = true ->
    dec_out (Finalize {| a_committed := c;
                         a_working := {| w_s := ws; w_executed := wex; w_result := Some (ex, r) |};
                         a_exec := ExecutedBlock (b_hash D) p; a_staged := None |} D) =
    match apply_prices (s_o ws) (d_prices (b_data D)) (height_of (b_meta D)) with
    | None => (OErr L R EPutPrice, None)
    | Some o' =>
        (OFinalized L R (map (fun e => (tx_id (fst e), snd e)) ex) r {| s_l := s_l ws; s_o := o' |},
         Some {| s_l := s_l ws; s_o := o' |})
    end.
  Proof.
    intros EW. unfold finalize.
    cbn [a_exec check_if_executed_block]. rewrite N.eqb_refl, EW.
    cbn [negb with_exec a_working w_s].
    destruct (apply_prices (s_o ws) (d_prices (b_data D)) (height_of (b_meta D))); reflexivity.
  Qed.

  (** The prices commute with the transactions of a block outside the known class: applied
      after them (cached path) they give what the fresh path gets by applying them first. *)
  Lemma finalize_cached (a : App) D p :
    a_committed a = c -> a_staged a = None -> a_exec a = ExecutedBlock (b_hash D) p ->
    Cached (a_working a) D -> known_f7 (b_data D) = false ->
    dec_out (Finalize a D) = dec_out (Finalize (Init c) D).
  Proof.
    intros Hc Hs He (EW & EU & EF & sf & ex & EP & EM & Hws & Hwr) Hk.
    destruct (process_finalize _ _ _ _ _ _ _ EP) as [EFL Hmap].
    pose proof (known_f7_disj _ Hk) as Hd.
    destruct a as [ac [ws wex wres] ae ast].
    cbn [a_committed a_staged a_exec a_working w_s w_result] in *. subst ac ast ae ws wres.
    rewrite (finalize_cached_value D p _ wex ex _ EW), (finalize_init_value D EW EU). cbn [s_l s_o].
    destruct (apply_prices (s_o c) (d_prices (b_data D)) (height_of (b_meta D))) as [o1|] eqn:EA.
    - assert (HPR : PR L (d_prices (b_data D)) (height_of (b_meta D)) (Pre_exec c (b_meta D))
                       (Pre_exec {| s_l := s_l c; s_o := o1 |} (b_meta D)))
        by (apply PR_pre_exec; split; [reflexivity|exact EA]).
      edestruct finalize_loop_priced as (sf1 & EFL1 & Hl1 & Ho1); [exact Hd|exact HPR|exact EFL|].
      rewrite Ho1. cbv zeta. rewrite (PR_check_txs L l_check _ _ _ _ _ HPR), EF, EFL1, Hl1, Hmap, EM.
      destruct (l_post (s_l sf) (b_hash D) (b_meta D)); reflexivity.
    - rewrite (finalize_loop_unpriced L l_exec _ _ _ (Pre_exec c (b_meta D)) _ _ Hd EA EFL). reflexivity.
  Qed.

  (** Every legal path decides like the empty one: after the rounds either nothing is cached for
      the hash of [D], or the execution of a block that was shown with that hash, which is [D]
      since hashes determine blocks. *)
  Lemma decide_eq_fresh rs D :
    known_f7 (b_data D) = false -> Legal c rs D -> Decide (Init c) rs D = Decide (Init c) [] D.
  Proof.
    intros Hk [HF HH]. rewrite !decide_dec_out. change (Rounds (Init c) []) with (Init c).
    pose proof (rounds_inv rs [] (Init c) (Inv_init []) HF) as HI.
    cbn [List.app] in HI.
    set (a := Rounds (Init c) rs) in *.
    destruct HI as (Hc & Hs & He).
    destruct (snd (check_if_executed_block (a_exec a) (b_hash D))) eqn:Ek;
      [|rewrite (finalize_nonskip_eq a D Hc Hs Ek); reflexivity].
    destruct (proj1 (esm_skip_sound _ proposal_eqb (a_exec a)) _ Ek) as (p & EA & _).
    rewrite EA in He. destruct He as (B & HB & Hh & HC).
    assert (B = D) by (apply HH; [right; exact HB|left; reflexivity|exact Hh]). subst B.
    eapply finalize_cached; eassumption.
  Qed.

  Lemma finalize_finalized (a : App) D a1 res r s :
    Finalize a D = (a1, OFinalized L R res r s) -> a_staged a1 = Some s.
  Proof.
    unfold finalize.
    destruct (check_if_executed_block (a_exec a) (b_hash D)) as [e1 skip].
    destruct (negb (d_wf (b_data D))); [discriminate|].
    cbv zeta. destruct (apply_prices _ _ _) as [o'|]; [|discriminate].
    destruct (if skip then (_, None) else _) as [a4 [e|]]; [discriminate|].
    destruct (w_result (a_working a4)) as [[ex r0]|]; [|discriminate].
    intros E. injection E as <- _ _ <-. reflexivity.
  Qed.

  Lemma decide_finalized (a : App) rs D res r s :
    fst (Decide a rs D) = OFinalized L R res r s ->
    Decide a rs D = (OFinalized L R res r s, Some s).
  Proof.
    rewrite decide_dec_out.
    destruct (Finalize (Rounds a rs) D) as [a1 o] eqn:E. cbn [dec_out].
    destruct o; cbn [fst]; try discriminate.
    intros Ho. injection Ho as -> -> ->.
    apply finalize_finalized in E. unfold commit. rewrite E. reflexivity.
  Qed.
End Final.

Lemma path_independent : stmt_path_independent.
Proof.
  unfold stmt_path_independent, path_independent_at.
  intros L R l_pre l_check l_exec l_post commit_of uh_at height_of c D Hk rs1 rs2 H1 H2.
  rewrite (decide_eq_fresh L R l_pre l_check l_exec l_post commit_of uh_at height_of c rs1 D Hk H1).
  rewrite (decide_eq_fresh L R l_pre l_check l_exec l_post commit_of uh_at height_of c rs2 D Hk H2).
  reflexivity.
Qed.

Lemma no_path_dependent_failure : stmt_no_path_dependent_failure.
Proof.
  unfold stmt_no_path_dependent_failure.
  intros L R l_pre l_check l_exec l_post commit_of uh_at height_of c D rs1 rs2 res r s Hk H1 H2 HF.
  rewrite <- (path_independent L R l_pre l_check l_exec l_post commit_of uh_at height_of c D Hk
                rs1 rs2 H1 H2).
  apply decide_finalized. exact HF.
Qed.

Lemma history_independent : stmt_history_independent.
Proof.
  unfold stmt_history_independent.
  intros L R l_pre l_check l_exec l_post commit_of uh_at height_of c h1.
  revert c. induction h1 as [|[rs1 D1] t1 IH]; intros c [|[rs2 D2] t2] Hm HL1 HL2;
    cbn [map snd] in Hm; try discriminate.
  - reflexivity.
  - injection Hm as <- Hm. cbn [history history_legal] in *.
    destruct HL1 as (Hl1 & Hk & HL1). destruct HL2 as (Hl2 & _ & HL2).
    rewrite (path_independent L R l_pre l_check l_exec l_post commit_of uh_at height_of c D1 Hk
               rs1 rs2 Hl1 Hl2) in *.
    destruct (decide L R l_pre l_check l_exec l_post commit_of uh_at height_of (init_app L R c) rs2 D1)
      as [o [c'|]]; [|reflexivity].
    rewrite (IH c' t2 Hm HL1 HL2). reflexivity.
Qed.

Lemma price_order_irrelevant : stmt_price_order_irrelevant.
Proof.
  unfold stmt_price_order_irrelevant. intros o ps ps' h HP Hnd.
  apply apply_prices_perm; assumption.
Qed.

Lemma cached_compare_exact : stmt_cached_compare_exact.
Proof. unfold stmt_cached_compare_exact. exact proposal_eqb_iff. Qed.
