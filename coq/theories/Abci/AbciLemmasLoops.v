(** C05 -- the three transaction loops of [AbciModel] and their behaviour under oracle prices
    that were applied before / after the transactions. *)
From Astria Require Import Base.Bounded Abci.AbciModel Abci.AbciLemmasOracle Abci.AbciLemmasComm.

Definition tx_disj (ps : list (N * N)) (t : tx) : Prop :=
  forall k, In k (map fst ps) -> ~ In k (flat_map oaction_pairs (tx_oacts t)).

Lemma known_f7_disj d :
  known_f7 d = false -> forall t, In t (d_txs d) -> tx_disj (d_prices d) t.
Proof.
  intros H t Ht k Hk Hin.
  assert (E : known_f7 d = true); [|rewrite E in H; discriminate].
  unfold known_f7. apply existsb_exists. exists k. split; [exact Hk|].
  unfold mem_N. apply existsb_exists. exists k. split; [|apply N.eqb_refl].
  unfold block_touched. apply in_flat_map. exists t. split; assumption.
Qed.

(** FinalizeBlock's loop treats an executed transaction and a softly failed one alike, up to the
    result code. *)
Definition kept {S} (s : S) (x : xres S) : option (S * bool) :=
  match x with XOk s' => Some (s', true) | XSoft => Some (s, false) | XFail => None end.

Section Loops.
  Variable L : Type.
  Variable l_pre : L -> bmeta -> L.
  Variable l_check : L -> tx -> bool.
  Variable l_exec : L -> tx -> xres L.

  Notation State := (state L).
  Notation Exec_tx := (exec_tx L l_exec).
  Notation Finalize_loop := (finalize_loop L l_exec).
  Notation Process_loop := (process_loop L l_exec).
  Notation Prepare_loop := (prepare_loop L l_exec).
  Notation Check_tx := (check_tx L l_check).
  Notation Pre_exec := (pre_exec L l_pre).

  Lemma process_finalize : forall txs s cur sf ex,
    Process_loop s cur txs = (sf, inl ex) ->
    Finalize_loop s txs = (sf, ex) /\ map fst ex = txs.
  Proof.
    induction txs as [|t r IH]; intros s cur sf ex; cbn [process_loop finalize_loop].
    - intros E; injection E as <- <-. split; reflexivity.
    - destruct (cur <? tx_group t); [discriminate|].
      destruct (Exec_tx s t) as [s'| |]; [| |discriminate].
      (* executed, or failed softly: the same argument *)
      all: destruct (Process_loop _ (tx_group t) r) as [sf' [ex'|e]] eqn:EP; [|discriminate].
      all: intros E; injection E as <- <-.
      all: destruct (IH _ _ _ _ EP) as [-> <-]; split; reflexivity.
  Qed.

  Lemma prepare_process : forall mem s cur sf inc,
    Prepare_loop s cur mem = (sf, inc) ->
    Process_loop s cur (map fst inc) = (sf, inl inc) /\ incl (map fst inc) mem.
  Proof.
    induction mem as [|t r IH]; intros s cur sf inc; cbn [prepare_loop].
    - intros E; injection E as <- <-. split; [reflexivity|apply incl_refl].
    - assert (Skip : Prepare_loop s cur r = (sf, inc) ->
                     Process_loop s cur (map fst inc) = (sf, inl inc) /\ incl (map fst inc) (t :: r)).
      { intros E. destruct (IH _ _ _ _ E) as [H1 H2]. split; [exact H1|apply incl_tl; exact H2]. }
      destruct (cur <? tx_group t) eqn:EG; [exact Skip|].
      destruct (Exec_tx s t) as [s'| |] eqn:EX; [| |exact Skip].
      (* executed, or failed softly: the same argument *)
      all: destruct (Prepare_loop _ (tx_group t) r) as [sf' inc'] eqn:EP.
      all: intros E; injection E as <- <-.
      all: destruct (IH _ _ _ _ EP) as [H1 H2]; cbn [map fst process_loop].
      all: rewrite EG, EX, H1; split; [reflexivity|].
      all: apply incl_cons; [left; reflexivity|apply incl_tl; exact H2].
  Qed.

  Lemma finalize_loop_cons s t r :
    Finalize_loop s (t :: r) =
    match kept s (Exec_tx s t) with
    | Some (s', ok) => let (sf, ex) := Finalize_loop s' r in (sf, (t, ok) :: ex)
    | None => Finalize_loop s r
    end.
  Proof. cbn [finalize_loop]. destruct (Exec_tx s t); reflexivity. Qed.

  Variable ps : list (N * N).
  Variable h : N.

  Definition PR (s s1 : State) : Prop :=
    s_l s1 = s_l s /\ apply_prices (s_o s) ps h = Some (s_o s1).

  Lemma PR_pre_exec s s1 m : PR s s1 -> PR (Pre_exec s m) (Pre_exec s1 m).
  Proof.
    intros [Hl Ho]. split; cbn [pre_exec s_l s_o]; [rewrite Hl; reflexivity|exact Ho].
  Qed.

  Lemma PR_check_tx s s1 t : PR s s1 -> Check_tx s1 t = Check_tx s t.
  Proof.
    intros [Hl Ho]. unfold check_tx. rewrite Hl. f_equal.
    apply forallb_ext_all. intros a. eapply apply_prices_check; exact Ho.
  Qed.

  Lemma PR_check_txs s s1 txs : PR s s1 -> forallb (Check_tx s1) txs = forallb (Check_tx s) txs.
  Proof. intros H. apply forallb_ext_all. intros t. apply PR_check_tx; exact H. Qed.

  Lemma exec_tx_priced s s1 t :
    PR s s1 -> tx_disj ps t ->
    match kept s (Exec_tx s t) with
    | Some (s', ok) => exists s1', kept s1 (Exec_tx s1 t) = Some (s1', ok) /\ PR s' s1'
    | None => kept s1 (Exec_tx s1 t) = None
    end.
  Proof.
    intros [Hl Ho] Hd. unfold exec_tx. rewrite Hl.
    destruct (l_exec (s_l s) t) as [l'| |]; cbn [kept];
      [|exists s1; split; [reflexivity|split; assumption]|reflexivity].
    destruct (comm_apply_prices_oactions ps h (tx_oacts t) Hd) as (A & B & _).
    destruct (oactions_exec (s_o s) (tx_oacts t)) as [o2|] eqn:E; cbn [kept].
    - destruct (A _ _ _ Ho E) as (o12 & F & G). rewrite F.
      eexists; split; [reflexivity|]. split; cbn [s_l s_o]; [reflexivity|exact G].
    - rewrite (B _ _ Ho E). reflexivity.
  Qed.

  Lemma exec_tx_unpriced s s' ok t :
    apply_prices (s_o s) ps h = None -> tx_disj ps t ->
    kept s (Exec_tx s t) = Some (s', ok) -> apply_prices (s_o s') ps h = None.
  Proof.
    intros Ho Hd. unfold exec_tx.
    destruct (l_exec (s_l s) t) as [l'| |]; cbn [kept];
      [|intros E; injection E as <- _; exact Ho|discriminate].
    destruct (comm_apply_prices_oactions ps h (tx_oacts t) Hd) as (_ & _ & C).
    destruct (oactions_exec (s_o s) (tx_oacts t)) as [o2|] eqn:E; [|discriminate].
    intros E2; injection E2 as <- _. cbn [s_o]. eapply C; eassumption.
  Qed.

  Lemma finalize_loop_priced : forall txs s s1 sf ex,
    (forall t, In t txs -> tx_disj ps t) -> PR s s1 ->
    Finalize_loop s txs = (sf, ex) ->
    exists sf1, Finalize_loop s1 txs = (sf1, ex) /\ PR sf sf1.
  Proof.
    induction txs as [|t r IH]; intros s s1 sf ex Hd HP.
    - intros E; injection E as <- <-. exists s1; split; [reflexivity|exact HP].
    - assert (Hdr : forall t', In t' r -> tx_disj ps t') by (intros t' Hi; apply Hd; right; exact Hi).
      rewrite !finalize_loop_cons.
      pose proof (exec_tx_priced s s1 t HP (Hd t (or_introl eq_refl))) as HX.
      destruct (kept s (Exec_tx s t)) as [[s' ok]|].
      + destruct HX as (s1' & -> & HP').
        destruct (Finalize_loop s' r) as [sf' ex'] eqn:EF.
        intros E; injection E as <- <-.
        destruct (IH _ _ _ _ Hdr HP' EF) as (sf1 & EF1 & HPf). rewrite EF1.
        exists sf1; split; [reflexivity|exact HPf].
      + rewrite HX. intros E. apply (IH _ _ _ _ Hdr HP E).
  Qed.

  Lemma finalize_loop_unpriced : forall txs s sf ex,
    (forall t, In t txs -> tx_disj ps t) -> apply_prices (s_o s) ps h = None ->
    Finalize_loop s txs = (sf, ex) -> apply_prices (s_o sf) ps h = None.
  Proof.
    induction txs as [|t r IH]; intros s sf ex Hd Ho.
    - intros E; injection E as <- _. exact Ho.
    - assert (Hdr : forall t', In t' r -> tx_disj ps t') by (intros t' Hi; apply Hd; right; exact Hi).
      rewrite finalize_loop_cons.
      destruct (kept s (Exec_tx s t)) as [[s' ok]|] eqn:EX; [|intros E; eapply IH; eassumption].
      destruct (Finalize_loop s' r) as [sf' ex'] eqn:EF.
      intros E; injection E as <- _.
      eapply IH; [exact Hdr| |exact EF].
      eapply exec_tx_unpriced; [exact Ho|apply Hd; left; reflexivity|exact EX].
  Qed.
End Loops.
