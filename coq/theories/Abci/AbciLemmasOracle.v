(** C05 -- the comparisons of [AbciModel] hold for equal arguments only; [put_price] is an in-place
    update of a pair that is present, and such an update commutes with a currency-pair action
    on other pairs. *)
From Astria Require Import Base.Bounded Abci.AbciModel.
From Coq Require Import Permutation.

Lemma list_eqb_iff {A} (eqb : A -> A -> bool) :
  (forall x y, eqb x y = true <-> x = y) ->
  forall l1 l2, list_eqb eqb l1 l2 = true <-> l1 = l2.
Proof.
  intros H l1; induction l1 as [|x r IH]; intros [|y r2]; cbn [list_eqb];
    try (split; [reflexivity|reflexivity] || split; discriminate).
  rewrite andb_true_iff, H, IH. split; [intros [-> ->]; reflexivity|intros E; injection E; auto].
Qed.

Definition listN_eqb_iff := list_eqb_iff N.eqb N.eqb_eq.

(** Each comparison of the model is a conjunction of comparisons of the fields:
    rewritten into equalities of the fields, it is equality of the records. *)
Ltac fields_eq :=
  split; [intros H; decompose [and] H; subst; reflexivity
         |intros E; injection E; intros; subst; repeat split].

Lemma oaction_eqb_iff a b : oaction_eqb a b = true <-> a = b.
Proof.
  destruct a as [p|p], b as [q|q]; cbn [oaction_eqb]; try (split; discriminate);
    rewrite listN_eqb_iff; (split; [intros ->; reflexivity|intros E; injection E; auto]).
Qed.

Lemma price_eqb_iff a b : price_eqb a b = true <-> a = b.
Proof.
  destruct a as [a1 a2], b as [b1 b2]; unfold price_eqb; cbn [fst snd]. rewrite andb_true_iff, !N.eqb_eq. fields_eq.
Qed.

Lemma tx_eqb_iff a b : tx_eqb a b = true <-> a = b.
Proof.
  destruct a as [a1 a2 a3 a4 a5 a6 a7], b as [b1 b2 b3 b4 b5 b6 b7]; unfold tx_eqb; cbn [tx_id tx_signer tx_nonce tx_group tx_body tx_oacts tx_vupd].
  rewrite !andb_true_iff, !N.eqb_eq, (list_eqb_iff _ oaction_eqb_iff), (list_eqb_iff _ price_eqb_iff).
  fields_eq.
Qed.

Lemma bdata_eqb_iff a b : bdata_eqb a b = true <-> a = b.
Proof.
  destruct a as [a1 a2 a3 a4 a5 a6], b as [b1 b2 b3 b4 b5 b6]; unfold bdata_eqb; cbn [d_wf d_ecvalid d_prices d_uh d_commit d_txs].
  rewrite !andb_true_iff, !Bool.eqb_true_iff, !N.eqb_eq, !listN_eqb_iff,
    (list_eqb_iff _ price_eqb_iff), (list_eqb_iff _ tx_eqb_iff).
  fields_eq.
Qed.

Lemma proposal_eqb_iff a b : proposal_eqb a b = true <-> a = b.
Proof.
  destruct a as [[h1 t1 p1 n1 r1 v1 x1] d1], b as [[h2 t2 p2 n2 r2 v2 x2] d2]; unfold proposal_eqb, commit_eqb;
    cbn [m_height m_time m_proposer m_nvh m_lc_round m_lc_votes m_misb].
  rewrite !andb_true_iff, !N.eqb_eq, bdata_eqb_iff, listN_eqb_iff, (list_eqb_iff _ price_eqb_iff).
  fields_eq.
Qed.

Lemma o_lookup_put k k' v l :
  o_lookup k' (o_put k v l) = if N.eqb k k' then Some v else o_lookup k' l.
Proof.
  induction l as [|[k0 v0] r IH]; cbn [o_put o_lookup].
  - reflexivity.
  - destruct (N.eqb_spec k0 k) as [->|Hk]; cbn [o_lookup].
    + destruct (N.eqb k k'); reflexivity.
    + rewrite IH. destruct (N.eqb_spec k0 k'), (N.eqb_spec k k'); try reflexivity; congruence.
Qed.

Lemma o_lookup_del k k' l :
  o_lookup k' (o_del k l) = if N.eqb k k' then None else o_lookup k' l.
Proof.
  unfold o_del. induction l as [|[k0 v0] r IH]; cbn [filter o_lookup fst].
  - destruct (N.eqb k k'); reflexivity.
  - destruct (N.eqb_spec k0 k) as [->|Hk]; cbn [negb o_lookup].
    + rewrite IH. destruct (N.eqb k k'); reflexivity.
    + rewrite IH. destruct (N.eqb_spec k0 k'), (N.eqb_spec k k'); try reflexivity; congruence.
Qed.

Lemma o_lookup_put_other k k' v l : k <> k' -> o_lookup k' (o_put k v l) = o_lookup k' l.
Proof. intros H. rewrite o_lookup_put. destruct (N.eqb_spec k k'); [contradiction|reflexivity]. Qed.

Lemma o_lookup_del_other k k' l : k <> k' -> o_lookup k' (o_del k l) = o_lookup k' l.
Proof. intros H. rewrite o_lookup_del. destruct (N.eqb_spec k k'); [contradiction|reflexivity]. Qed.

Lemma is_some_lookup_put k k' v l :
  is_some (o_lookup k l) = true ->
  is_some (o_lookup k' (o_put k v l)) = is_some (o_lookup k' l).
Proof.
  intros H. rewrite o_lookup_put. destruct (N.eqb_spec k k') as [<-|_]; [|reflexivity].
  rewrite H; reflexivity.
Qed.

(** [k] has to be present: two absent keys are appended in the order of the puts *)
Lemma o_put_put k k' v v' l :
  k <> k' -> is_some (o_lookup k l) = true ->
  o_put k v (o_put k' v' l) = o_put k' v' (o_put k v l).
Proof.
  intros Hne. induction l as [|[k0 v0] r IH]; cbn [o_lookup o_put]; intros Hp.
  - discriminate.
  - destruct (N.eqb_spec k0 k) as [->|Hk].
    + destruct (N.eqb_spec k k'); [contradiction|]. cbn [o_put].
      rewrite N.eqb_refl. destruct (N.eqb_spec k k'); [contradiction|]. reflexivity.
    + destruct (N.eqb_spec k0 k') as [->|Hk']; cbn [o_put].
      * destruct (N.eqb_spec k' k); [congruence|]. rewrite N.eqb_refl. reflexivity.
      * destruct (N.eqb_spec k0 k); [contradiction|]. destruct (N.eqb_spec k0 k'); [contradiction|].
        rewrite IH by exact Hp. reflexivity.
Qed.

Lemma o_del_put k k' v l :
  k <> k' -> is_some (o_lookup k l) = true ->
  o_del k' (o_put k v l) = o_put k v (o_del k' l).
Proof.
  intros Hne. unfold o_del.
  induction l as [|[k0 v0] r IH]; cbn [o_lookup o_put filter fst]; intros Hp.
  - discriminate.
  - destruct (N.eqb_spec k0 k) as [->|Hk].
    + cbn [filter fst]. destruct (N.eqb_spec k k'); [contradiction|]. cbn [negb o_put].
      rewrite N.eqb_refl. reflexivity.
    + cbn [filter fst]. destruct (N.eqb_spec k0 k') as [->|Hk']; cbn [negb].
      * apply IH, Hp.
      * cbn [o_put]. destruct (N.eqb_spec k0 k); [contradiction|]. rewrite IH by exact Hp.
        reflexivity.
Qed.

Definition obind {A B} (x : option A) (f : A -> option B) : option B :=
  match x with Some a => f a | None => None end.

Definition o_upd (k : N) (v : pstate) (o : ostate) : ostate :=
  {| o_pairs := o_put k v (o_pairs o); o_next := o_next o; o_num := o_num o |}.

Definition bump (ps : pstate) (p h : N) : pstate :=
  {| ps_id := ps_id ps; ps_nonce := ps_nonce ps + 1; ps_price := Some (p, h) |}.

Lemma put_price_spec o k p h :
  put_price o k p h =
  match o_lookup k (o_pairs o) with
  | None => None
  | Some ps => if ps_nonce ps <? U64_MAX then Some (o_upd k (bump ps p h) o) else None
  end.
Proof. reflexivity. Qed.

Lemma put_price_Some o k p h o1 :
  put_price o k p h = Some o1 ->
  exists ps, o_lookup k (o_pairs o) = Some ps /\ (ps_nonce ps <? U64_MAX) = true /\
             o1 = o_upd k (bump ps p h) o.
Proof.
  rewrite put_price_spec. destruct (o_lookup k (o_pairs o)) as [ps|]; [|discriminate].
  destruct (ps_nonce ps <? U64_MAX) eqn:En; [|discriminate].
  intros E; injection E as <-. exists ps; repeat split; try reflexivity; exact En.
Qed.

Lemma put_price_same_lookup o o' k p h :
  o_lookup k (o_pairs o') = o_lookup k (o_pairs o) ->
  put_price o' k p h =
  match put_price o k p h with
  | Some _ =>
      match o_lookup k (o_pairs o) with
      | Some ps => Some (o_upd k (bump ps p h) o')
      | None => None
      end
  | None => None
  end.
Proof.
  intros E. rewrite !put_price_spec, E.
  destruct (o_lookup k (o_pairs o)) as [ps|]; [|reflexivity].
  destruct (ps_nonce ps <? U64_MAX); reflexivity.
Qed.

Lemma put_price_present o k p h o1 k' :
  put_price o k p h = Some o1 ->
  is_some (o_lookup k' (o_pairs o1)) = is_some (o_lookup k' (o_pairs o)).
Proof.
  intros H. apply put_price_Some in H as (ps & E & _ & ->). cbn [o_upd o_pairs].
  apply is_some_lookup_put. rewrite E; reflexivity.
Qed.

Lemma apply_prices_present ps h k' : forall o o1,
  apply_prices o ps h = Some o1 ->
  is_some (o_lookup k' (o_pairs o1)) = is_some (o_lookup k' (o_pairs o)).
Proof.
  induction ps as [|[k p] r IH]; cbn [apply_prices]; intros o o1 H.
  - injection H as <-; reflexivity.
  - destruct (put_price o k p h) as [o'|] eqn:E; [|discriminate].
    rewrite (IH _ _ H). eapply put_price_present; eassumption.
Qed.

Lemma forallb_ext_all {A} (f g : A -> bool) l :
  (forall x, f x = g x) -> forallb f l = forallb g l.
Proof.
  intros H. induction l as [|x r IH]; cbn [forallb]; [reflexivity|]. rewrite H, IH; reflexivity.
Qed.

Lemma oaction_check_ext o o' a :
  (forall k, is_some (o_lookup k (o_pairs o')) = is_some (o_lookup k (o_pairs o))) ->
  oaction_check o' a = oaction_check o a.
Proof.
  intros H. destruct a as [ps|ps]; cbn [oaction_check]; apply forallb_ext_all; intros k;
    rewrite H; reflexivity.
Qed.

Lemma apply_prices_check o ps h o1 a :
  apply_prices o ps h = Some o1 -> oaction_check o1 a = oaction_check o a.
Proof.
  intros H. apply oaction_check_ext. intros k. eapply apply_prices_present; eassumption.
Qed.

Lemma oadd_loop_upd k v ps : ~ In k ps -> forall pairs next num,
  is_some (o_lookup k pairs) = true ->
  oadd_loop (o_put k v pairs) next num ps =
  option_map (fun r => (o_put k v (fst (fst r)), snd (fst r), snd r)) (oadd_loop pairs next num ps).
Proof.
  induction ps as [|k' r IH]; intros Hn pairs next num Hp; cbn [oadd_loop].
  - reflexivity.
  - apply not_in_cons in Hn as [Hne Hr].
    rewrite <- (o_put_put k k') by assumption.
    destruct (checked_add U64_MAX num 1) as [num'|]; [|reflexivity].
    destruct (checked_add U64_MAX next 1) as [next'|]; [|reflexivity].
    apply IH; [exact Hr|].
    rewrite o_lookup_put_other by (apply not_eq_sym, Hne). exact Hp.
Qed.

Lemma orem_loop_upd k v ps : ~ In k ps -> forall pairs,
  is_some (o_lookup k pairs) = true ->
  orem_loop (o_put k v pairs) ps = option_map (o_put k v) (orem_loop pairs ps).
Proof.
  induction ps as [|k' r IH]; intros Hn pairs Hp; cbn [orem_loop].
  - reflexivity.
  - apply not_in_cons in Hn as [Hne Hr].
    rewrite o_lookup_put_other by exact Hne.
    destruct (o_lookup k' pairs); [|reflexivity].
    rewrite o_del_put by assumption.
    apply IH; [exact Hr|].
    rewrite o_lookup_del_other by (apply not_eq_sym, Hne). exact Hp.
Qed.

Lemma oadd_loop_lookup k ps : ~ In k ps -> forall pairs next num pairs' next' num',
  oadd_loop pairs next num ps = Some (pairs', next', num') ->
  o_lookup k pairs' = o_lookup k pairs.
Proof.
  induction ps as [|k' r IH]; intros Hn pairs next num pairs' next' num'; cbn [oadd_loop].
  - intros E; injection E as <- _ _; reflexivity.
  - apply not_in_cons in Hn as [Hne Hr]. apply not_eq_sym in Hne.
    destruct (checked_add U64_MAX num 1) as [num1|]; [|discriminate].
    destruct (checked_add U64_MAX next 1) as [next1|]; [|discriminate].
    intros E. rewrite (IH Hr _ _ _ _ _ _ E). apply o_lookup_put_other; exact Hne.
Qed.

Lemma orem_loop_lookup k ps : ~ In k ps -> forall pairs pairs',
  orem_loop pairs ps = Some pairs' -> o_lookup k pairs' = o_lookup k pairs.
Proof.
  induction ps as [|k' r IH]; intros Hn pairs pairs'; cbn [orem_loop].
  - intros E; injection E as <-; reflexivity.
  - apply not_in_cons in Hn as [Hne Hr]. apply not_eq_sym in Hne.
    destruct (o_lookup k' pairs); [|discriminate].
    intros E. rewrite (IH Hr _ _ E). apply o_lookup_del_other; exact Hne.
Qed.

Lemma oaction_exec_upd k v o a :
  ~ In k (oaction_pairs a) -> is_some (o_lookup k (o_pairs o)) = true ->
  oaction_exec (o_upd k v o) a = option_map (o_upd k v) (oaction_exec o a).
Proof.
  intros Hn Hp. unfold oaction_exec.
  rewrite (oaction_check_ext o (o_upd k v o))
    by (intros k'; cbn [o_upd o_pairs]; apply is_some_lookup_put; exact Hp).
  destruct (oaction_check o a); [|reflexivity].
  destruct a as [ps|ps]; cbn [oaction_pairs] in Hn; cbn [o_upd o_pairs o_next o_num].
  - rewrite oadd_loop_upd by assumption.
    destruct (oadd_loop (o_pairs o) (o_next o) (o_num o) ps) as [[[p1 n1] m1]|]; reflexivity.
  - rewrite orem_loop_upd by assumption.
    destruct (orem_loop (o_pairs o) ps) as [p1|]; cbn [option_map]; [|reflexivity].
    destruct (checked_sub (o_num o) (N.of_nat (length ps))); reflexivity.
Qed.

Lemma oaction_exec_lookup k o a o2 :
  ~ In k (oaction_pairs a) -> oaction_exec o a = Some o2 ->
  o_lookup k (o_pairs o2) = o_lookup k (o_pairs o).
Proof.
  intros Hn. unfold oaction_exec. destruct (oaction_check o a); [|discriminate].
  destruct a as [ps|ps]; cbn [oaction_pairs] in Hn.
  - destruct (oadd_loop (o_pairs o) (o_next o) (o_num o) ps) as [[[p1 n1] m1]|] eqn:E; [|discriminate].
    intros E2; injection E2 as <-. cbn [o_pairs]. eapply oadd_loop_lookup; eassumption.
  - destruct (orem_loop (o_pairs o) ps) as [p1|] eqn:E; [|discriminate].
    destruct (checked_sub (o_num o) (N.of_nat (length ps))); [|discriminate].
    intros E2; injection E2 as <-. cbn [o_pairs]. eapply orem_loop_lookup; eassumption.
Qed.

Lemma oactions_exec_upd k v acts : ~ In k (flat_map oaction_pairs acts) -> forall o,
  is_some (o_lookup k (o_pairs o)) = true ->
  oactions_exec (o_upd k v o) acts = option_map (o_upd k v) (oactions_exec o acts).
Proof.
  induction acts as [|a r IH]; intros Hn o Hp; cbn [oactions_exec flat_map] in *; [reflexivity|].
  rewrite in_app_iff in Hn. apply Decidable.not_or in Hn as [Ha Hr].
  rewrite oaction_exec_upd by assumption.
  destruct (oaction_exec o a) as [o'|] eqn:E; cbn [option_map]; [|reflexivity].
  apply IH; [exact Hr|]. rewrite (oaction_exec_lookup k o a o' Ha E). exact Hp.
Qed.

Lemma oactions_exec_lookup k acts : ~ In k (flat_map oaction_pairs acts) -> forall o o2,
  oactions_exec o acts = Some o2 -> o_lookup k (o_pairs o2) = o_lookup k (o_pairs o).
Proof.
  induction acts as [|a r IH]; intros Hn o o2; cbn [oactions_exec flat_map] in *.
  - intros E; injection E as <-; reflexivity.
  - rewrite in_app_iff in Hn. apply Decidable.not_or in Hn as [Ha Hr].
    destruct (oaction_exec o a) as [o'|] eqn:E; [|discriminate].
    intros E2. rewrite (IH Hr _ _ E2). exact (oaction_exec_lookup k o a o' Ha E).
Qed.

Lemma put_price_upd k v k' p h o :
  k <> k' -> is_some (o_lookup k (o_pairs o)) = true ->
  put_price (o_upd k v o) k' p h = option_map (o_upd k v) (put_price o k' p h).
Proof.
  intros Hne Hp. rewrite !put_price_spec. cbn [o_upd o_pairs]. rewrite o_lookup_put_other by exact Hne.
  destruct (o_lookup k' (o_pairs o)) as [ps|]; [|reflexivity].
  destruct (ps_nonce ps <? U64_MAX); [|reflexivity].
  unfold o_upd; cbn [option_map o_pairs o_next o_num]. rewrite (o_put_put k k') by assumption.
  reflexivity.
Qed.
