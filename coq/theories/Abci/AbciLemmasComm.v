(** C05 -- commutation of oracle price application with currency-pair actions on other pairs,
    and independence of the price order. *)
From Astria Require Import Base.Bounded Abci.AbciModel Abci.AbciLemmasOracle.
From Coq Require Import Permutation.

Definition comm (g f : ostate -> option ostate) : Prop :=
  (forall o o1 o2, g o = Some o1 -> f o = Some o2 ->
                   exists o12, f o1 = Some o12 /\ g o2 = Some o12) /\
  (forall o o1, g o = Some o1 -> f o = None -> f o1 = None) /\
  (forall o o2, g o = None -> f o = Some o2 -> g o2 = None).

Lemma comm_id_l f : comm (fun o => Some o) f.
Proof.
  repeat split.
  - intros o o1 o2 Hg Hf. injection Hg as <-. exists o2; split; [exact Hf|reflexivity].
  - intros o o1 Hg Hf. injection Hg as <-. exact Hf.
  - intros o o2 Hg _; discriminate.
Qed.

Lemma comm_seq_l g1 g2 f :
  comm g1 f -> comm g2 f -> comm (fun o => obind (g1 o) g2) f.
Proof.
  intros (A1 & B1 & C1) (A2 & B2 & C2). repeat split.
  - intros o o1 o2 Hg Hf. destruct (g1 o) as [ob|] eqn:E1; cbn [obind] in Hg; [|discriminate].
    destruct (A1 _ _ _ E1 Hf) as (ob2 & F1 & G1).
    destruct (A2 _ _ _ Hg F1) as (o12 & F2 & G2).
    exists o12. rewrite G1; cbn [obind]. split; assumption.
  - intros o o1 Hg Hf. destruct (g1 o) as [ob|] eqn:E1; cbn [obind] in Hg; [|discriminate].
    eapply B2; [eassumption|]. eapply B1; eassumption.
  - intros o o2 Hg Hf. destruct (g1 o) as [ob|] eqn:E1; cbn [obind] in Hg.
    + destruct (A1 _ _ _ E1 Hf) as (ob2 & F1 & G1). rewrite G1; cbn [obind].
      eapply C2; eassumption.
    + rewrite (C1 _ _ E1 Hf). reflexivity.
Qed.

Lemma comm_eq g f : comm g f -> forall o, obind (g o) f = obind (f o) g.
Proof.
  intros (A & B & C) o. destruct (g o) as [o1|] eqn:Eg, (f o) as [o2|] eqn:Ef; cbn [obind].
  - destruct (A _ _ _ Eg Ef) as (o12 & F & G). rewrite F, G. reflexivity.
  - exact (B _ _ Eg Ef).
  - symmetry. exact (C _ _ Eg Ef).
  - reflexivity.
Qed.

Lemma comm_put_price k p h f :
  (forall o o2, f o = Some o2 -> o_lookup k (o_pairs o2) = o_lookup k (o_pairs o)) ->
  (forall v o, is_some (o_lookup k (o_pairs o)) = true ->
               f (o_upd k v o) = option_map (o_upd k v) (f o)) ->
  comm (fun o => put_price o k p h) f.
Proof.
  intros Hl Hu. repeat split.
  - intros o o1 o2 Hg Hf. apply put_price_Some in Hg as (ps & El & En & ->).
    rewrite Hu, Hf by (rewrite El; reflexivity). eexists; split; [reflexivity|].
    rewrite put_price_spec, (Hl _ _ Hf), El, En. reflexivity.
  - intros o o1 Hg Hf. apply put_price_Some in Hg as (ps & El & _ & ->).
    rewrite Hu, Hf by (rewrite El; reflexivity). reflexivity.
  - intros o o2 Hg Hf. rewrite put_price_spec, (Hl _ _ Hf). rewrite put_price_spec in Hg.
    destruct (o_lookup k (o_pairs o)) as [ps|]; [|reflexivity].
    destruct (ps_nonce ps <? U64_MAX); [discriminate|reflexivity].
Qed.

Lemma comm_apply_prices_oactions ps h acts :
  (forall k, In k (map fst ps) -> ~ In k (flat_map oaction_pairs acts)) ->
  comm (fun o => apply_prices o ps h) (fun o => oactions_exec o acts).
Proof.
  induction ps as [|[k p] r IH]; intros Hn.
  - apply comm_id_l.
  - apply (comm_seq_l (fun o => put_price o k p h) (fun o => apply_prices o r h)).
    + assert (Hk : ~ In k (flat_map oaction_pairs acts)) by (apply Hn; left; reflexivity).
      apply comm_put_price; [apply oactions_exec_lookup|intros v; apply oactions_exec_upd]; exact Hk.
    + apply IH. intros k' Hi. apply Hn. right; exact Hi.
Qed.

Lemma comm_put_price_put_price k1 p1 k2 p2 h :
  k1 <> k2 -> comm (fun o => put_price o k1 p1 h) (fun o => put_price o k2 p2 h).
Proof.
  intros Hne. apply comm_put_price.
  - intros o o2 Hf. apply put_price_Some in Hf as (ps & _ & _ & ->). cbn [o_upd o_pairs].
    apply o_lookup_put_other, not_eq_sym, Hne.
  - intros v o. apply put_price_upd; exact Hne.
Qed.

Lemma apply_prices_perm ps ps' : Permutation ps ps' ->
  NoDup (map fst ps) -> forall o h, apply_prices o ps h = apply_prices o ps' h.
Proof.
  induction 1 as [|[k p] l l' HP IH|[k1 p1] [k2 p2] l|l l' l'' HP1 IH1 HP2 IH2]; intros Hnd o h.
  - reflexivity.
  - cbn [apply_prices map fst] in *. inversion Hnd as [|? ? _ Hnd']; subst.
    destruct (put_price o k p h); [apply IH; exact Hnd'|reflexivity].
  - cbn [map fst] in Hnd. inversion Hnd as [|? ? Hni _]; subst.
    assert (Hne : k2 <> k1) by (intros ->; apply Hni; left; reflexivity).
    pose proof (comm_eq _ _ (comm_put_price_put_price k2 p2 k1 p1 h Hne) o) as S.
    cbn [apply_prices].
    destruct (put_price o k1 p1 h) as [oa|], (put_price o k2 p2 h) as [ob|]; cbn [obind] in S.
    + rewrite S. reflexivity.
    + rewrite <- S. reflexivity.
    + rewrite S. reflexivity.
    + reflexivity.
  - rewrite IH1 by exact Hnd. apply IH2.
    eapply Permutation_NoDup; [|exact Hnd]. apply Permutation_map; exact HP1.
Qed.
