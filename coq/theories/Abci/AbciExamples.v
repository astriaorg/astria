(** C05 -- the F7 witness (replayed on the real App by harness/c05.py), a block outside the known
    class through seven legal paths, the near twins of a cached proposal, and the F15 witness (a
    stale mempool); all on the concrete ledger [cledger] of AbciModel.v, all by computation. *)
From Astria Require Import Base.Bounded Abci.AbciModel Abci.AbciSpec Abci.AbciLemmasOracle.

Definition x_decide := decide cledger N cl_pre cl_check cl_exec cl_post cl_commit_of cl_uh_at cl_height_of.
Definition x_legal := legal cledger N cl_pre cl_check cl_exec cl_commit_of cl_uh_at.
Definition x_prepare := prepare cledger N cl_pre cl_exec cl_commit_of cl_uh_at.

(** [x_legal] decided by evaluation: the mempools pass the construction checks, and blocks with
    the same hash pass the cached-proposal comparison, which is exact. *)
Definition hashes_agree (bs : list block) : bool :=
  forallb (fun b1 => forallb (fun b2 =>
    negb (b_hash b1 =? b_hash b2) || proposal_eqb (b_meta b1, b_data b1) (b_meta b2, b_data b2)) bs) bs.

Lemma hashes_agree_sound bs : hashes_agree bs = true -> hash_consistent bs.
Proof.
  intros H b1 b2 H1 H2 Hh. unfold hashes_agree in H.
  rewrite forallb_forall in H. specialize (H b1 H1).
  rewrite forallb_forall in H. specialize (H b2 H2).
  rewrite Hh, N.eqb_refl in H. apply (proposal_eqb_iff (_, _) (_, _)) in H.
  destruct b1, b2; cbn in Hh, H. congruence.
Qed.

Definition x_legalb (c : c_state) (rs : list round) (D : block) : bool :=
  forallb (fun r => match r with
                    | RProposer m mem _ _ => forallb (check_tx cledger cl_check (pre_exec cledger cl_pre c m)) mem
                    | _ => true
                    end) rs &&
  hashes_agree (D :: flat_map (round_blocks cledger N cl_pre cl_exec cl_commit_of cl_uh_at c) rs).

Lemma x_legalb_sound c rs D : x_legalb c rs D = true -> x_legal c rs D.
Proof.
  intros H. apply andb_true_iff in H as [Hf Hh]. split; [|apply hashes_agree_sound, Hh].
  apply Forall_forall. intros r Hr. rewrite forallb_forall in Hf. specialize (Hf r Hr).
  destruct r; [exact Hf|exact I|exact I].
Qed.

Lemma Forall_forallb {A} (f : A -> bool) (P : A -> Prop) l :
  (forall x, f x = true -> P x) -> forallb f l = true -> Forall P l.
Proof.
  intros H E. apply Forall_forall. intros x Hx. rewrite forallb_forall in E. apply H, E, Hx.
Qed.

Lemma Forall_map_repeat {A B} (f : A -> B) (v : B) l :
  map f l = repeat v (length l) -> Forall (fun x => f x = v) l.
Proof.
  induction l as [|x r IH]; cbn [map length repeat]; intros E; constructor; injection E; auto.
Qed.

Definition no_data : bdata :=
  {| d_wf := false; d_ecvalid := false; d_prices := []; d_uh := 0; d_commit := []; d_txs := [] |}.

Definition prepared_data (c : c_state) (meta : bmeta) (mem : list tx) (prices : list (N * N)) : bdata :=
  match x_prepare (c_init c) meta mem prices with
  | (_, OPrepared _ _ d) => d
  | _ => no_data
  end.

(** committed state: two currency pairs (1 = BTC/USD with id 0, 2 = ETH/USD with id 1) at the
    genesis prices of dev/values/validators/*.yml, height 4 *)
Definition x_c : c_state :=
  {| s_l := {| cl_nonces := []; cl_log := []; cl_height := 4; cl_time := 400; cl_nvh := 0;
               cl_vals := [(0, 10); (1, 10); (2, 10); (3, 10)]; cl_block := (0, 0) |};
     s_o := {| o_pairs := [(1, {| ps_id := 0; ps_nonce := 0; ps_price := Some (5834065777, 0) |});
                           (2, {| ps_id := 1; ps_nonce := 0; ps_price := Some (3138872234, 0) |})];
               o_next := 2; o_num := 2 |} |}.

Definition x_meta : bmeta :=
  {| m_height := 5; m_time := 500; m_proposer := 0; m_nvh := 0; m_lc_round := 0;
     m_lc_votes := [(0, 2); (1, 2); (2, 2); (3, 1)]; m_misb := [] |}.
(** the same request fields at another block time (another round of the height) *)
Definition x_meta_at (dt : N) : bmeta :=
  {| m_height := 5; m_time := 500 + dt; m_proposer := 1; m_nvh := 0; m_lc_round := 0;
     m_lc_votes := [(0, 2); (1, 2); (2, 2); (3, 1)]; m_misb := [] |}.

Definition t_transfer : tx :=
  {| tx_id := 1; tx_signer := 1; tx_nonce := 0; tx_group := 4; tx_body := 0; tx_oacts := []; tx_vupd := [] |}.
Definition t_failing : tx :=
  {| tx_id := 2; tx_signer := 2; tx_nonce := 0; tx_group := 4; tx_body := 1; tx_oacts := []; tx_vupd := [] |}.
Definition t_remove_btc : tx :=
  {| tx_id := 3; tx_signer := 0; tx_nonce := 0; tx_group := 2; tx_body := 0; tx_oacts := [ORemove [1]]; tx_vupd := [] |}.
Definition t_add_sol : tx :=
  {| tx_id := 4; tx_signer := 0; tx_nonce := 0; tx_group := 2; tx_body := 0; tx_oacts := [OAdd [3]]; tx_vupd := [] |}.

(** * F7: prices for BTC/USD and ETH/USD, and a transaction removing BTC/USD *)

Definition f7_mem := [t_transfer; t_failing; t_remove_btc].
Definition f7_prices : list (N * N) := [(1, 101); (2, 201)].
Definition f7_D : block :=
  {| b_hash := 77; b_meta := x_meta; b_data := prepared_data x_c x_meta f7_mem f7_prices |}.

Example f7_block_is_honest :
  b_data f7_D =
  {| d_wf := true; d_ecvalid := true; d_prices := f7_prices; d_uh := 0; d_commit := [1; 3];
     d_txs := [t_transfer; t_remove_btc] |}.
Proof. vm_compute. reflexivity. Qed.

Example f7_known : known_f7 (b_data f7_D) = true.
Proof. vm_compute. reflexivity. Qed.

(** syncing / restarted node: FinalizeBlock only -- succeeds, BTC/USD is gone, ETH/USD priced *)
Example f7_fresh_path_ok :
  exists res r s, x_decide (c_init x_c) [] f7_D = (OFinalized cledger N res r s, Some s) /\
                  o_pairs (s_o s) = [(2, {| ps_id := 1; ps_nonce := 1; ps_price := Some (201, 5) |})].
Proof. eexists _, _, _. vm_compute. split; reflexivity. Qed.

(** validator: ProcessProposal accepts, FinalizeBlock fails *)
Example f7_validator_path_fails :
  x_decide (c_init x_c) [RValidator f7_D] f7_D = (OErr cledger N EPutPrice, None).
Proof. vm_compute. reflexivity. Qed.

(** proposer: PrepareProposal, ProcessProposal of the own block, FinalizeBlock fails *)
Example f7_proposer_path_fails :
  x_decide (c_init x_c) [RProposer x_meta f7_mem f7_prices (Some 77)] f7_D = (OErr cledger N EPutPrice, None).
Proof. vm_compute. reflexivity. Qed.

(** validator that crashed after ProcessProposal and was restarted: succeeds again *)
Example f7_restarted_validator_ok :
  x_decide (c_init x_c) [RValidator f7_D; RRestart] f7_D = x_decide (c_init x_c) [] f7_D.
Proof. vm_compute. reflexivity. Qed.

Lemma f7_legal_fresh : x_legal x_c [] f7_D.
Proof. apply x_legalb_sound. vm_compute. reflexivity. Qed.

Lemma f7_legal_validator : x_legal x_c [RValidator f7_D] f7_D.
Proof. apply x_legalb_sound. vm_compute. reflexivity. Qed.

Lemma path_independent_refuted :
  exists (c : c_state) (rs1 rs2 : list round) (D : block),
    x_legal c rs1 D /\ x_legal c rs2 D /\ known_f7 (b_data D) = true /\
    (exists res r s, x_decide (c_init c) rs1 D = (OFinalized cledger N res r s, Some s)) /\
    x_decide (c_init c) rs2 D = (OErr cledger N EPutPrice, None).
Proof.
  exists x_c, [], [RValidator f7_D], f7_D.
  split; [exact f7_legal_fresh|]. split; [exact f7_legal_validator|].
  split; [exact f7_known|]. split.
  - destruct f7_fresh_path_ok as (res & r & s & H & _). exists res, r, s. exact H.
  - exact f7_validator_path_fails.
Qed.

Lemma path_independent_full_refuted : ~ stmt_path_independent_full.
Proof.
  intros H.
  pose proof (H cledger N cl_pre cl_check cl_exec cl_post cl_commit_of cl_uh_at cl_height_of x_c f7_D
                [] [RValidator f7_D] f7_legal_fresh f7_legal_validator
              : x_decide (c_init x_c) [] f7_D = x_decide (c_init x_c) [RValidator f7_D] f7_D) as E.
  rewrite f7_validator_path_fails in E.
  destruct f7_fresh_path_ok as (res & r & s & H1 & _). rewrite H1 in E. discriminate E.
Qed.

(** * Non-vacuity: a block outside the known class (prices for ETH/USD only, a transaction that
    removes BTC/USD, one that adds SOL/USD is in another proposal) through seven different legal
    call paths *)

Definition ok_mem := [t_transfer; t_failing; t_remove_btc].
Definition ok_prices : list (N * N) := [(2, 201)].
Definition ok_D : block :=
  {| b_hash := 78; b_meta := x_meta; b_data := prepared_data x_c x_meta ok_mem ok_prices |}.

(** another proposal of the height: invalid (contains the failing transaction) *)
Definition other_X : block :=
  {| b_hash := 79; b_meta := x_meta_at 100;
     b_data := {| d_wf := true; d_ecvalid := true; d_prices := ok_prices; d_uh := 0;
                  d_commit := [2; 4]; d_txs := [t_failing; t_add_sol] |} |}.
(** and a valid one *)
Definition other_Z : block :=
  {| b_hash := 80; b_meta := x_meta_at 200;
     b_data := prepared_data x_c (x_meta_at 200) [t_add_sol] [(1, 7); (2, 9)] |}.

Definition path_P := [RProposer x_meta ok_mem ok_prices (Some 78)].
Definition path_V := [RValidator ok_D].
Definition path_O := [RValidator other_X; RValidator other_Z; RValidator ok_D].
Definition path_R2 := [RProposer (x_meta_at 300) [t_add_sol; t_transfer] [] (Some 81); RValidator ok_D].
Definition path_F : list round := [].
Definition path_PF := [RProposer (x_meta_at 300) [t_add_sol] [] None].
Definition path_VRX := [RValidator ok_D; RRestart; RValidator other_Z].

Example ok_not_known : known_f7 (b_data ok_D) = false.
Proof. vm_compute. reflexivity. Qed.

Example ok_block_touches_pairs_and_has_prices :
  block_priced (b_data ok_D) = [2] /\ block_touched (b_data ok_D) = [1].
Proof. vm_compute. split; reflexivity. Qed.

Example ok_finalizes :
  exists res r s, x_decide (c_init x_c) path_F ok_D = (OFinalized cledger N res r s, Some s) /\
                  res = [(1, true); (3, true)].
Proof. eexists _, _, _. vm_compute. split; reflexivity. Qed.

Example ok_processes_accept_and_reject :
  snd (process cledger N cl_pre cl_check cl_exec cl_post cl_commit_of cl_uh_at (c_init x_c) ok_D) = OAccept cledger N /\
  snd (process cledger N cl_pre cl_check cl_exec cl_post cl_commit_of cl_uh_at (c_init x_c) other_X) = OErr cledger N ETxFail /\
  snd (process cledger N cl_pre cl_check cl_exec cl_post cl_commit_of cl_uh_at (c_init x_c) other_Z) = OAccept cledger N.
Proof. vm_compute. repeat split; reflexivity. Qed.

Example ok_all_paths_agree :
  x_decide (c_init x_c) path_P ok_D = x_decide (c_init x_c) path_F ok_D /\
  x_decide (c_init x_c) path_V ok_D = x_decide (c_init x_c) path_F ok_D /\
  x_decide (c_init x_c) path_O ok_D = x_decide (c_init x_c) path_F ok_D /\
  x_decide (c_init x_c) path_R2 ok_D = x_decide (c_init x_c) path_F ok_D /\
  x_decide (c_init x_c) path_PF ok_D = x_decide (c_init x_c) path_F ok_D /\
  x_decide (c_init x_c) path_VRX ok_D = x_decide (c_init x_c) path_F ok_D.
Proof. vm_compute. repeat split; reflexivity. Qed.

Example ok_paths_are_legal :
  x_legal x_c path_P ok_D /\ x_legal x_c path_V ok_D /\ x_legal x_c path_O ok_D /\
  x_legal x_c path_R2 ok_D /\ x_legal x_c path_F ok_D /\ x_legal x_c path_PF ok_D /\
  x_legal x_c path_VRX ok_D.
Proof.
  do 6 (split; [apply x_legalb_sound; vm_compute; reflexivity|]).
  apply x_legalb_sound; vm_compute; reflexivity.
Qed.

(** the execution state machine really caches: after ProcessProposal the block is skipped *)
Example ok_validator_path_is_cached :
  a_exec cledger N (rounds cledger N cl_pre cl_check cl_exec cl_post cl_commit_of cl_uh_at (c_init x_c) path_V)
  = ExecutedBlock 78 None.
Proof. vm_compute. reflexivity. Qed.

Example ok_proposer_path_is_cached :
  exists p, a_exec cledger N (rounds cledger N cl_pre cl_check cl_exec cl_post cl_commit_of cl_uh_at (c_init x_c) path_P)
            = ExecutedBlock 78 (Some p).
Proof. eexists. vm_compute. reflexivity. Qed.

Lemma paths_exercised :
  known_f7 (b_data ok_D) = false /\
  (exists res r s, x_decide (c_init x_c) path_F ok_D = (OFinalized cledger N res r s, Some s) /\
                   res = [(1, true); (3, true)]) /\
  x_legal x_c path_P ok_D /\ x_legal x_c path_V ok_D /\ x_legal x_c path_O ok_D /\
  x_legal x_c path_R2 ok_D /\ x_legal x_c path_F ok_D /\ x_legal x_c path_PF ok_D /\
  x_legal x_c path_VRX ok_D /\
  x_decide (c_init x_c) path_P ok_D = x_decide (c_init x_c) path_F ok_D /\
  x_decide (c_init x_c) path_V ok_D = x_decide (c_init x_c) path_F ok_D /\
  x_decide (c_init x_c) path_O ok_D = x_decide (c_init x_c) path_F ok_D /\
  x_decide (c_init x_c) path_R2 ok_D = x_decide (c_init x_c) path_F ok_D /\
  x_decide (c_init x_c) path_PF ok_D = x_decide (c_init x_c) path_F ok_D /\
  x_decide (c_init x_c) path_VRX ok_D = x_decide (c_init x_c) path_F ok_D.
Proof.
  split; [exact ok_not_known|]. split; [exact ok_finalizes|].
  destruct ok_paths_are_legal as (L1 & L2 & L3 & L4 & L5 & L6 & L7).
  exact (conj L1 (conj L2 (conj L3 (conj L4 (conj L5 (conj L6 (conj L7 ok_all_paths_agree))))))).
Qed.

(** * Near twins: the decided block equals a proposal the node has cached (prepared / processed)
    except for ONE request field.  The cached execution must not be reused: every path agrees with
    the fresh one, and -- on this ledger -- every field but the last commit is visible in the
    result (the evidence removes validator 2; time / next validators hash go into the state;
    proposer and block hash into the stored sequencer block). *)

Definition with_misb (m : bmeta) (x : list N) : bmeta :=
  {| m_height := m_height m; m_time := m_time m; m_proposer := m_proposer m; m_nvh := m_nvh m;
     m_lc_round := m_lc_round m; m_lc_votes := m_lc_votes m; m_misb := x |}.
Definition with_time (m : bmeta) (t : N) : bmeta :=
  {| m_height := m_height m; m_time := t; m_proposer := m_proposer m; m_nvh := m_nvh m;
     m_lc_round := m_lc_round m; m_lc_votes := m_lc_votes m; m_misb := m_misb m |}.
Definition with_proposer (m : bmeta) (p : N) : bmeta :=
  {| m_height := m_height m; m_time := m_time m; m_proposer := p; m_nvh := m_nvh m;
     m_lc_round := m_lc_round m; m_lc_votes := m_lc_votes m; m_misb := m_misb m |}.
Definition with_nvh (m : bmeta) (n : N) : bmeta :=
  {| m_height := m_height m; m_time := m_time m; m_proposer := m_proposer m; m_nvh := n;
     m_lc_round := m_lc_round m; m_lc_votes := m_lc_votes m; m_misb := m_misb m |}.
Definition with_round (m : bmeta) (r : N) : bmeta :=
  {| m_height := m_height m; m_time := m_time m; m_proposer := m_proposer m; m_nvh := m_nvh m;
     m_lc_round := r; m_lc_votes := m_lc_votes m; m_misb := m_misb m |}.
Definition with_votes (m : bmeta) (v : list (N * N)) : bmeta :=
  {| m_height := m_height m; m_time := m_time m; m_proposer := m_proposer m; m_nvh := m_nvh m;
     m_lc_round := m_lc_round m; m_lc_votes := v; m_misb := m_misb m |}.

Definition twin_of (h : N) (m : bmeta) : block := {| b_hash := h; b_meta := m; b_data := b_data ok_D |}.

Definition nt_misb : block := twin_of 178 (with_misb x_meta [2]).
Definition nt_time : block := twin_of 179 (with_time x_meta 507).
Definition nt_proposer : block := twin_of 180 (with_proposer x_meta 3).
Definition nt_nvh : block := twin_of 181 (with_nvh x_meta 9).
Definition nt_round : block := twin_of 182 (with_round x_meta 1).
Definition nt_votes : block := twin_of 183 (with_votes x_meta [(0, 2); (1, 2); (2, 2); (3, 2)]).
Definition nt_hash : block := twin_of 184 x_meta.
Definition near_twins := [nt_misb; nt_time; nt_proposer; nt_nvh; nt_round; nt_votes; nt_hash].

(** what the node saw of the height before: the proposal [ok_D] prepared, processed or both; in
    the last three, the near twin processed after that *)
Definition nt_paths (T : block) : list (list round) :=
  [ [RProposer x_meta ok_mem ok_prices None];
    [RProposer x_meta ok_mem ok_prices (Some 78)];
    [RValidator ok_D];
    [RProposer x_meta ok_mem ok_prices None; RValidator T];
    [RProposer x_meta ok_mem ok_prices (Some 78); RValidator T];
    [RValidator ok_D; RValidator T; RValidator ok_D] ].

Example nt_cached_comparison_rejects_every_twin :
  forallb (fun T => negb (proposal_eqb (b_meta ok_D, b_data ok_D) (b_meta T, b_data T)))
          [nt_misb; nt_time; nt_proposer; nt_nvh; nt_round; nt_votes] = true /\
  proposal_eqb (b_meta ok_D, b_data ok_D) (b_meta nt_hash, b_data nt_hash) = true.
Proof. vm_compute. split; reflexivity. Qed.

Example nt_all_paths_agree :
  forallb (fun T =>
    forallb (fun rs =>
      match x_decide (c_init x_c) rs T, x_decide (c_init x_c) [] T with
      | (OFinalized _ _ res1 r1 s1, Some c1), (OFinalized _ _ res2 r2 s2, Some c2) =>
          list_eqb price_eqb (cl_vals (s_l s1)) (cl_vals (s_l s2)) &&
          N.eqb (cl_time (s_l s1)) (cl_time (s_l s2)) && N.eqb (cl_nvh (s_l s1)) (cl_nvh (s_l s2)) &&
          price_eqb (cl_block (s_l s1)) (cl_block (s_l s2)) &&
          list_eqb N.eqb (cl_log (s_l s1)) (cl_log (s_l s2)) &&
          N.eqb (cl_time (s_l s1)) (m_time (b_meta T)) &&
          price_eqb (cl_block (s_l s1)) (b_hash T, m_proposer (b_meta T))
      | _, _ => false
      end) (nt_paths T)) near_twins = true.
Proof. vm_compute. reflexivity. Qed.

Example nt_all_paths_agree_exactly :
  Forall (fun T => Forall (fun rs => x_decide (c_init x_c) rs T = x_decide (c_init x_c) [] T) (nt_paths T))
         near_twins.
Proof.
  (* One evaluation per twin, in which the fresh path's value is shared; left to [reflexivity],
     each equality would be decided by the lazy machine, at the tactic and again at [Qed]. *)
  repeat (apply Forall_cons; [apply Forall_map_repeat; vm_compute; reflexivity|]).
  apply Forall_nil.
Qed.

Example nt_paths_are_legal :
  Forall (fun T => Forall (fun rs => x_legal x_c rs T) (nt_paths T)) near_twins.
Proof.
  apply (Forall_forallb (fun T => forallb (fun rs => x_legalb x_c rs T) (nt_paths T)));
    [|vm_compute; reflexivity].
  intros T. apply Forall_forallb. intros rs. apply x_legalb_sound.
Qed.

(** the evidence is acted upon: validator 2 is gone (here on one path; by
    [nt_all_paths_agree_exactly] on every path) *)
Example nt_misbehaving_validator_removed :
  exists res r s, x_decide (c_init x_c) [RProposer x_meta ok_mem ok_prices None; RValidator nt_misb] nt_misb
                  = (OFinalized cledger N res r s, Some s) /\
                  cl_vals (s_l s) = [(0, 10); (1, 10); (3, 10)].
Proof. eexists _, _, _. vm_compute. split; reflexivity. Qed.

(** ... while the proposal the node had prepared keeps it: reusing the cached execution for the
    near twin would fork the node *)
Example nt_prepared_proposal_keeps_validator :
  exists res r s, x_decide (c_init x_c) [RProposer x_meta ok_mem ok_prices (Some 78)] ok_D
                  = (OFinalized cledger N res r s, Some s) /\
                  cl_vals (s_l s) = [(0, 10); (1, 10); (2, 10); (3, 10)].
Proof. eexists _, _, _. vm_compute. split; reflexivity. Qed.

(** the near twin was executed afresh (no cached proposal attached to the executed block) *)
Example nt_twin_is_reexecuted :
  a_exec cledger N (rounds cledger N cl_pre cl_check cl_exec cl_post cl_commit_of cl_uh_at (c_init x_c)
                      [RProposer x_meta ok_mem ok_prices None; RValidator nt_misb])
  = ExecutedBlock 178 None.
Proof. vm_compute. reflexivity. Qed.

(** every field but the last commit (which FinalizeBlock does not read) changes the result *)
Example nt_fields_are_observable :
  forallb (fun T =>
    match x_decide (c_init x_c) [] T, x_decide (c_init x_c) [] ok_D with
    | (OFinalized _ _ _ _ s1, _), (OFinalized _ _ _ _ s2, _) =>
        negb (list_eqb price_eqb (cl_vals (s_l s1)) (cl_vals (s_l s2)) &&
              N.eqb (cl_time (s_l s1)) (cl_time (s_l s2)) && N.eqb (cl_nvh (s_l s1)) (cl_nvh (s_l s2)) &&
              price_eqb (cl_block (s_l s1)) (cl_block (s_l s2)))
    | _, _ => false
    end) [nt_misb; nt_time; nt_proposer; nt_nvh; nt_hash] = true.
Proof. vm_compute. reflexivity. Qed.

Lemma near_twins_exercised :
  Forall (fun T => b_data T = b_data ok_D /\ T <> ok_D) near_twins /\
  Forall (fun T => Forall (fun rs => x_legal x_c rs T) (nt_paths T)) near_twins /\
  Forall (fun T => Forall (fun rs => x_decide (c_init x_c) rs T = x_decide (c_init x_c) [] T) (nt_paths T))
         near_twins /\
  (exists res r s, x_decide (c_init x_c) [RProposer x_meta ok_mem ok_prices None; RValidator nt_misb] nt_misb
                   = (OFinalized cledger N res r s, Some s) /\
                   cl_vals (s_l s) = [(0, 10); (1, 10); (3, 10)]) /\
  (exists res r s, x_decide (c_init x_c) [RProposer x_meta ok_mem ok_prices (Some 78)] ok_D
                   = (OFinalized cledger N res r s, Some s) /\
                   cl_vals (s_l s) = [(0, 10); (1, 10); (2, 10); (3, 10)]).
Proof.
  split.
  { repeat constructor; try reflexivity; intros E; apply (f_equal b_hash) in E; vm_compute in E;
      discriminate E. }
  split; [exact nt_paths_are_legal|].
  split; [exact nt_all_paths_agree_exactly|].
  split; [exact nt_misbehaving_validator_removed|exact nt_prepared_proposal_keeps_validator].
Qed.

(** * The mempool hypothesis of [legal] is needed (finding F15): construction checks are made on
    the state a block starts from by ProcessProposal and by a fresh FinalizeBlock, never by
    PrepareProposal.  A mempool holding a transaction that went stale -- here: "add pair 1",
    admitted when pair 1 did not exist; it is constructible again only after the block's own
    "remove pair 1" -- yields a block which its proposer executes and finalizes, and which fails
    construction on every other path. *)

Definition t_add_btc : tx :=
  {| tx_id := 5; tx_signer := 0; tx_nonce := 1; tx_group := 2; tx_body := 0; tx_oacts := [OAdd [1]]; tx_vupd := [] |}.
Definition stale_mem := [t_remove_btc; t_add_btc].
Definition stale_D : block :=
  {| b_hash := 90; b_meta := x_meta; b_data := prepared_data x_c x_meta stale_mem [] |}.
Definition stale_path_P := [RProposer x_meta stale_mem [] (Some 90)].

Example stale_mempool_is_not_fresh :
  forallb (check_tx cledger cl_check (pre_exec cledger cl_pre x_c x_meta)) stale_mem = false.
Proof. vm_compute. reflexivity. Qed.

Example stale_block_contains_both : map tx_id (d_txs (b_data stale_D)) = [3; 5].
Proof. vm_compute. reflexivity. Qed.

Lemma stale_mempool_refuted :
  known_f7 (b_data stale_D) = false /\
  hash_consistent (stale_D :: flat_map (round_blocks cledger N cl_pre cl_exec cl_commit_of cl_uh_at x_c) stale_path_P) /\
  ~ x_legal x_c stale_path_P stale_D /\
  (exists res r s, x_decide (c_init x_c) stale_path_P stale_D = (OFinalized cledger N res r s, Some s)) /\
  x_decide (c_init x_c) [] stale_D = (OErr cledger N EConstruct, None) /\
  x_decide (c_init x_c) [RValidator stale_D] stale_D = (OErr cledger N EConstruct, None) /\
  snd (process cledger N cl_pre cl_check cl_exec cl_post cl_commit_of cl_uh_at (c_init x_c) stale_D)
    = OErr cledger N EConstruct.
Proof.
  split; [vm_compute; reflexivity|].
  split; [apply hashes_agree_sound; vm_compute; reflexivity|].
  split.
  - intros [Hf _]. inversion Hf as [|r l Hr Hl]; subst. cbn in Hr.
    pose proof stale_mempool_is_not_fresh as Hn. unfold stale_mem in *. rewrite Hr in Hn. discriminate Hn.
  - split; [eexists _, _, _; vm_compute; reflexivity|].
    repeat split; vm_compute; reflexivity.
Qed.
