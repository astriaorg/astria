(** Helpers used by the definitions that tools/rs2v.py generates into Kernels/*.v.
    Hand-written.  Machine integers are [N]; a Rust function [f : (T...) -> R] becomes
    [f : T... -> option R] where [None] means "the Rust code panics (debug build)".
    Generated files depend on Base/ only.

    Word sizes are passed explicitly: [mx] is the largest value of the type
    ([U64_MAX] for u64/usize, [U128_MAX] for u128, ...), [w] its width in bits. *)
From Astria Require Export Base.Bounded.
From Coq Require Export ZArith.

Definition U8_MAX  : N := 255.
Definition U16_MAX : N := 65535.

(** the panic monad *)
Definition bind {A B} (x : option A) (f : A -> option B) : option B :=
  match x with Some a => f a | None => None end.
Notation "'do' x <- a ; b" := (bind a (fun x => b)) (at level 200, x name, a at level 100, b at level 200).
Notation "'do' ' ( x , y ) <- a ; b" := (bind a (fun '(x, y) => b))
  (at level 200, x name, y name, a at level 100, b at level 200).

(** [assert!(b)] *)
Definition assert (b : bool) : option unit := if b then Some tt else None.

(** [!x] on a word whose all-ones value is [mx] *)
Definition lnot (mx x : N) : N := N.lxor x mx.
(** [x << k] for a constant k < w: the high bits are dropped *)
Definition shl (w x k : N) : N := (N.shiftl x k) mod 2 ^ w.
(** [x >> k] for a constant k < w *)
Definition shr (x k : N) : N := N.shiftr x k.

(** [x.next_power_of_two()] in a debug build: panics when the result does not fit *)
Definition next_power_of_two (mx x : N) : option N :=
  let r := if x <=? 1 then 1 else 2 ^ N.log2_up x in
  if r <=? mx then Some r else None.
Definition is_power_of_two (x : N) : bool :=
  negb (x =? 0) && (N.land x (x - 1) =? 0).

(** [a / b], [a % b], [checked_div], [checked_rem]: [None] for b = 0.  For the plain
    operators [None] is the panic, for the checked ones it is the returned value. *)
Definition checked_div (a b : N) : option N := if b =? 0 then None else Some (a / b).
Definition checked_rem (a b : N) : option N := if b =? 0 then None else Some (a mod b).

Definition wrapping_sub (w a b : N) : N := (a + 2 ^ w - b mod 2 ^ w) mod 2 ^ w.
Definition wrapping_mul (w a b : N) : N := (a * b) mod 2 ^ w.
Definition abs_diff (a b : N) : N := if a <? b then b - a else a - b.
(** [x as uN] to a narrower type *)
Definition truncate (w x : N) : N := x mod 2 ^ w.

Definition is_some {A} (o : option A) : bool := match o with Some _ => true | None => false end.
Definition unwrap_or {A} (o : option A) (d : A) : A := match o with Some a => a | None => d end.

(** [Result<T, E>]: the error VALUE is not modelled.  A function returning [Result] becomes
    [option (result T)]: [None] = panic, [Some RErr] = it returned [Err(_)], [Some (ROk v)] =
    it returned [Ok(v)] -- an error return is never confused with a panic. *)
Inductive result (T : Type) := ROk (v : T) | RErr.
Arguments ROk {T} v.
Arguments RErr {T}.
(** [o.ok_or(e)], [o.ok_or_else(|| e)], [o.ok_or_eyre(msg)] *)
Definition ok_or {T} (o : option T) : result T := match o with Some v => ROk v | None => RErr end.
(** [r.unwrap()], [r.expect(msg)] *)
Definition unwrap_res {T} (r : result T) : option T := match r with ROk v => Some v | RErr => None end.
Definition is_ok {T} (r : result T) : bool := match r with ROk _ => true | RErr => false end.
(** the model side usually writes an error-returning function as [option T] *)
Definition res_of_opt {T} (o : option T) : result T := ok_or o.

(** [i64::MAX] as an unsigned number: the largest [tendermint::block::Height] *)
Definition I64_MAX : N := 9223372036854775807.
(** [x.try_into()] / [T::try_from(x)] into a type whose largest value is [mx] (from an unsigned
    type, so there is no lower bound to check) *)
Definition try_into_ranged (mx x : N) : result N := if x <=? mx then ROk x else RErr.
(** [tendermint::block::Height::increment] (tendermint-0.40.4 src/block/height.rs:76, not part
    of the repository, transcribed by hand):
    [Height::try_from(self.0.checked_add(1).expect("height overflow")).unwrap()] *)
Definition height_increment (h : N) : option N :=
  do h1 <- checked_add U64_MAX h 1;
  unwrap_res (try_into_ranged I64_MAX h1).

(** signed integers ([i128]) are [Z]; [mn]/[mx] the smallest/largest value of the type.
    Rust's [/] and [%] truncate towards zero: [Z.quot]/[Z.rem]. *)
Definition I128_MAX : Z := 170141183460469231731687303715884105727%Z.
Definition I128_MIN : Z := (-170141183460469231731687303715884105728)%Z.
Definition i_checked_add (mn mx a b : Z) : option Z :=
  let s := (a + b)%Z in if ((mn <=? s) && (s <=? mx))%Z then Some s else None.
Definition i_checked_sub (mn mx a b : Z) : option Z :=
  let s := (a - b)%Z in if ((mn <=? s) && (s <=? mx))%Z then Some s else None.
(** [None] for a zero divisor and for [MIN / -1] *)
Definition i_checked_div (mn a b : Z) : option Z :=
  if (b =? 0)%Z then None else if ((b =? -1) && (a =? mn))%Z then None else Some (Z.quot a b).
Definition i_checked_rem (mn a b : Z) : option Z :=
  if (b =? 0)%Z then None else if ((b =? -1) && (a =? mn))%Z then None else Some (Z.rem a b).

(** elementary facts about [bind] and the saturating product *)
Lemma bind_Some {A B} (a : A) (f : A -> option B) : bind (Some a) f = f a.
Proof. reflexivity. Qed.
Lemma bind_ret {A} (x : option A) : bind x (fun a => Some a) = x.
Proof. destruct x; reflexivity. Qed.
Lemma saturating_mul_exact mx a b : a * b <= mx -> saturating_mul mx a b = a * b.
Proof. unfold saturating_mul; lia. Qed.

(** For the equations between a regenerated kernel and the model's function that hold by
    conversion: [reflexivity] unifies with a strategy that may unfold [N.modulo] before the helper
    definitions; [exact eq_refl] hands the problem to the conversion test as it stands. *)
Ltac conv := intros; exact eq_refl.
