(** General facts about lists and left folds, for the proofs of all models. *)
Require Import List.
Import ListNotations.

Lemma fold_left_inv {A B} (P : A -> Prop) (f : A -> B -> A) :
  (forall a b, P a -> P (f a b)) -> forall l a, P a -> P (fold_left f l a).
Proof. intros Hf. induction l as [|b r IH]; intros a Ha; cbn [fold_left]; auto. Qed.

(** [I a xs]: an invariant of a left fold that also sees the items still to come *)
Lemma fold_left_rest {A B} (f : A -> B -> A) (I : A -> list B -> Prop) :
  (forall a x xs, I a (x :: xs) -> I (f a x) xs) -> forall xs a, I a xs -> I (fold_left f xs a) [].
Proof. intros Hf. induction xs as [|x xs IH]; intros a H; cbn [fold_left]; auto. Qed.

(** [l]: the items still to come; [seen]: those already met *)
Definition fresh {A} (l seen : list A) : Prop := NoDup l /\ forall a, In a l -> ~ In a seen.

Lemma fresh_nil {A} (seen : list A) : fresh [] seen.
Proof. split; [constructor|intros a []]. Qed.

Lemma fresh_cons {A} (a : A) l seen : fresh (a :: l) seen <-> ~ In a seen /\ fresh l (a :: seen).
Proof.
  unfold fresh. rewrite NoDup_cons_iff. split.
  - intros [[Hna Hnd] Hdis]. split; [apply Hdis; left; reflexivity|]. split; [exact Hnd|].
    intros x Hx [<-|Hs]; [exact (Hna Hx)|exact (Hdis x (or_intror Hx) Hs)].
  - intros [Hns [Hnd Hdis]]. split; [split; [|exact Hnd]|].
    + intros Hin. exact (Hdis a Hin (or_introl eq_refl)).
    + intros x [<-|Hx] Hs; [exact (Hns Hs)|exact (Hdis x Hx (or_intror Hs))].
Qed.
