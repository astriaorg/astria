(** Machine integers as [N] with explicit bounds.  No proofs that depend on the
    model live here except elementary facts about these operations. *)
From Coq Require Export NArith PeanoNat Arith List Bool Lia.
Export ListNotations.
Open Scope N_scope.

Definition U32_MAX  : N := 4294967295.
Definition U64_MAX  : N := 18446744073709551615.
Definition U128_MAX : N := 340282366920938463463374607431768211455.

Definition checked_add (mx a b : N) : option N :=
  if a + b <=? mx then Some (a + b) else None.
Definition checked_sub (a b : N) : option N :=
  if b <=? a then Some (a - b) else None.
Definition checked_mul (mx a b : N) : option N :=
  if a * b <=? mx then Some (a * b) else None.
Definition saturating_add (mx a b : N) : N := N.min mx (a + b).
Definition saturating_mul (mx a b : N) : N := N.min mx (a * b).
Definition saturating_sub (a b : N) : N := a - b.   (* N subtraction truncates at 0 *)
Definition wrapping_add (w a b : N) : N := (a + b) mod 2 ^ w.

Fixpoint sumN (l : list N) : N :=
  match l with [] => 0 | x :: r => x + sumN r end.

Lemma sumN_app l1 l2 : sumN (l1 ++ l2) = sumN l1 + sumN l2.
Proof. induction l1 as [|x l1 IH]; cbn [sumN app]; lia. Qed.

Lemma saturating_add_exact mx a b : a + b <= mx -> saturating_add mx a b = a + b.
Proof. unfold saturating_add; lia. Qed.

Lemma guard_Some (p q v r : N) :
  (if p <=? q then Some v else None) = Some r <-> (r = v /\ p <= q).
Proof.
  destruct (N.leb_spec p q); split; intros H0.
  - inversion H0; subst; split; [reflexivity|assumption].
  - destruct H0 as [-> _]; reflexivity.
  - discriminate.
  - destruct H0 as [_ H1]; lia.
Qed.

Lemma checked_add_Some mx a b r : checked_add mx a b = Some r <-> (r = a + b /\ a + b <= mx).
Proof. apply guard_Some. Qed.

Lemma checked_mul_Some mx a b r :
  checked_mul mx a b = Some r <-> (r = a * b /\ a * b <= mx).
Proof. apply guard_Some. Qed.

Lemma checked_sub_Some a b r : checked_sub a b = Some r <-> (r = a - b /\ b <= a).
Proof. apply guard_Some. Qed.
