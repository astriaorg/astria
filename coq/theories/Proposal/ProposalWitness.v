(** C06 — concrete runs of the instantiated model (ProposalLedger.v): non-vacuity of the
    theorems, and the witness that an honest proposal can be rejected when an included
    transaction is not constructible in the block-start state (DESIGN F10). *)
From Astria Require Import Base.Bounded Proposal.ProposalModel Proposal.ProposalSpec
  Proposal.ProposalLedger.
From Coq Require Import ZArith.
Open Scope N_scope.

Definition mk (id len : N) (b : body) : ltx :=
  match mk_ltx id len b with Some t => t | None => mkTx id len 0 0 b end.

(** accounts 0..3 with funds; sudo = account 0 *)
Definition st0 : lstate := genesis [(0, 1000000000); (1, 1000000000); (2, 1000000000); (3, 5)] 0 1.
(** typed block with an extended commit info item of 4 bytes (no votes; the fallback item is
    the same 4 bytes); the lengths are those harness/c06.py (CONFIG) measures on the implementation *)
Definition env0 : env := mkEnv true None (Some (4, 4)).
(** typed block whose extended commit info item carries three signed votes (294 bytes) *)
Definition env_votes : env := mkEnv true None (Some (294, 4)).

(** 231 bytes: a transaction with one transfer, as encoded there *)
Definition t_transfer : ltx := mk 1 231 (mkBody 1 0 [ATransfer 2 100]).
Definition t_rollup : ltx := mk 2 400 (mkBody 2 0 [ARollup 7 150]).
Definition t_rollup2 : ltx := mk 3 300 (mkBody 2 1 [ARollup 5 60]).
Definition t_poor : ltx := mk 4 231 (mkBody 3 0 [ATransfer 2 100]).       (* insufficient funds *)
Definition t_gap : ltx := mk 5 231 (mkBody 1 5 [ATransfer 2 1]).          (* nonce gap *)
Definition t_feechange : ltx := mk 6 120 (mkBody 0 0 [AFeeChange 0 3 0]).
Definition t_sudo : ltx := mk 7 130 (mkBody 0 1 [ASudoChange 1]).
Definition t_big : ltx := mk 8 200100 (mkBody 1 1 [ARollup 9 200000]).
Definition t_big2 : ltx := mk 9 100100 (mkBody 1 2 [ARollup 9 100000]).  (* would exceed 256 000 *)

Definition queue0 : list ltx :=
  [t_transfer; t_rollup; t_poor; t_gap; t_big; t_big2; t_rollup2; t_feechange; t_sudo].

(** a run through the guards: [t_poor] fails fatally and is excluded (and handed to the
    mempool for removal), [t_gap] has a bad nonce and is skipped, [t_big2] does not fit the
    sequenced-data limit and is skipped, the sudo-group transactions come last *)
Example ex_prepare :
  match lprepare env0 st0 queue0 1000000 with
  | inl p => map tx_id (p_included p) = [1; 2; 8; 3; 6; 7] /\
             map tx_id (p_removed p) = [4] /\
             proposal_len true (p_entries p) = 68 + 4 + (231 + 400 + 200100 + 300 + 120 + 130) /\
             seq_total (p_included p) = 200210 /\
             lprocess env0 st0 (p_entries p) = Accept
  | inr _ => False
  end.
Proof. vm_compute. repeat split; reflexivity. Qed.

(** max_tx_bytes cuts the block: the first transaction that does not fit ends the loop *)
Example ex_prepare_break :
  match lprepare env0 st0 queue0 (68 + 4 + 231 + 400 + 100) with
  | inl p => map tx_id (p_included p) = [1; 2] /\ lprocess env0 st0 (p_entries p) = Accept
  | inr _ => False
  end.
Proof. vm_compute. repeat split; reflexivity. Qed.

Example ex_prepare_too_small : lprepare env0 st0 queue0 67 = inr PSize.
Proof. reflexivity. Qed.

Definition honest_entries (mx : Z) : list (entry body commitment) :=
  match lprepare env0 st0 queue0 mx with inl p => p_entries p | inr _ => [] end.

Definition swap01 {A} (l : list A) : list A :=
  match l with a :: b :: r => b :: a :: r | _ => l end.

Example ex_reject_group :
  (* a sudo-group transaction in front of a general one *)
  lprocess env0 st0 (firstn 3 (honest_entries 1000000)
                     ++ [ETx (honest_raw t_feechange); ETx (honest_raw t_transfer)]) = Reject RGroup.
Proof. vm_compute. reflexivity. Qed.

Example ex_reject_commit :
  lprocess env0 st0 (firstn 3 (honest_entries 1000000) ++ [ETx (honest_raw t_transfer)]) = Reject RCommit.
Proof. vm_compute. reflexivity. Qed.

Example ex_reject_fatal :
  lprocess env0 st0 (honest_entries 1000000 ++ [ETx (honest_raw t_poor)]) = Reject RGroup /\
  lprocess env0 st0 (firstn 5 (honest_entries 1000000) ++ [ETx (honest_raw t_poor)]) = Reject RExec.
Proof. vm_compute. split; reflexivity. Qed.

Example ex_reject_seqlimit :
  lprocess env0 st0 (firstn 3 (honest_entries 1000000)
                     ++ map (fun t => ETx (honest_raw t)) [t_transfer; t_big; t_big2]) = Reject RSeqLimit.
Proof. vm_compute. reflexivity. Qed.

Example ex_reject_unsigned :
  lprocess env0 st0 (firstn 3 (honest_entries 1000000) ++ [ETx (mkRaw true false t_transfer)])
  = Reject RConstruct.
Proof. vm_compute. reflexivity. Qed.

Example ex_reject_items_reordered :
  lprocess env0 st0 (swap01 (honest_entries 1000000)) = Reject RParse.
Proof. vm_compute. reflexivity. Qed.

(** * F10: an honest proposal that validators reject *)

(** Account 1 signed an IbcSudoChange while it was the sudo address (so the mempool holds a
    CheckedTransaction for it); since then the sudo address moved to account 0.  Account 0's
    SudoAddressChange back to account 1 is ahead of it in the builder queue.  The proposer executes
    both cached transactions successfully; a validator constructs every transaction of the block
    against the block-start state, where account 1 is not the sudo address. *)
Definition st10 : lstate := genesis [(0, 1000000); (1, 1000000)] 0 1.
Definition t_back : ltx := mk 1 130 (mkBody 0 0 [ASudoChange 1]).
Definition t_stale : ltx := mk 2 130 (mkBody 1 0 [AIbcSudoChange 3]).

Lemma prepare_accepted_refuted :
  exists (e : env) (s0 : lstate) (q : list ltx) (mx : Z) p,
    env_wf e /\ (mx <= Z.of_N I64_MAX)%Z /\
    lprepare e s0 q mx = inl p /\
    p_included p = q /\
    run_nonfatal lexec s0 (p_included p) (p_state p) /\
    ~ constructible_at_start lconstruct s0 (p_included p) /\
    lprocess e s0 (p_entries p) = Reject RConstruct.
Proof.
  destruct (lprepare env0 st10 [t_back; t_stale] 100000) as [p|] eqn:E; [|vm_compute in E; discriminate].
  exists env0, st10, [t_back; t_stale], 100000%Z, p.
  split; [intros H; discriminate|].
  split; [vm_compute; discriminate|].
  split; [exact E|].
  vm_compute in E. inversion E; subst p; clear E. cbn [p_included p_state p_entries].
  split; [reflexivity|].
  split.
  { eapply rn_ok; [vm_compute; reflexivity|]. eapply rn_ok; [vm_compute; reflexivity|]. constructor. }
  split.
  { intros H. inversion H as [|x l H1 H2]; subst. inversion H2 as [|y l' H3 H4]; subst.
    vm_compute in H3. discriminate. }
  vm_compute. reflexivity.
Qed.

(** When the extended commit info does not fit below max_tx_bytes, prepare_proposal substitutes
    the encoding of the empty one of the same round; the block (here: 68 bytes of commitments, the
    4-byte item, one 231-byte transaction of a queue of two) stays within max_tx_bytes and is
    accepted. *)
Example ex_prepare_eci_fallback :
  match lprepare env_votes st0 [t_transfer; t_rollup] (68 + 4 + 231) with
  | inl p => firstn 1 (skipn 2 (p_entries p)) = [EItem (IEci 4 EciGood)] /\
             map tx_id (p_included p) = [1] /\
             proposal_len true (p_entries p) = 303 /\
             lprocess env_votes st0 (p_entries p) = Accept
  | inr _ => False
  end.
Proof. vm_compute. repeat split; reflexivity. Qed.

(** when it fits, the item with the votes is the one in the block *)
Example ex_prepare_eci_fits :
  match lprepare env_votes st0 [t_transfer] (68 + 294 + 231) with
  | inl p => firstn 1 (skipn 2 (p_entries p)) = [EItem (IEci 294 EciGood)] /\
             map tx_id (p_included p) = [1] /\
             lprocess env_votes st0 (p_entries p) = Accept
  | inr _ => False
  end.
Proof. vm_compute. repeat split; reflexivity. Qed.

(** not even the empty extended commit info fits: prepare_proposal fails *)
Example ex_prepare_eci_no_room : lprepare env_votes st0 [t_transfer] 71 = inr PItemSize.
Proof. reflexivity. Qed.

(** an item that does not decode (such as one holding empty bytes) in the place of the extended
    commit info is a parse failure *)
Example ex_reject_eci_undecodable :
  lprocess env0 st0 (firstn 2 (honest_entries 1000000) ++ [EItem (IEci 2 EciUndecodable)]
                     ++ skipn 3 (honest_entries 1000000)) = Reject RParse.
Proof. vm_compute. reflexivity. Qed.

(** ** prepare_proposal as it was before repository commit a321bb4 (finding F10b), defined so that
    the witness below can be about it *)

(** The fallback item held empty bytes, which do not decode as an
    ExtendedCommitInfoWithCurrencyPairMapping. *)
Definition add_eci_before_a321bb4 (e : env) (c : constraints)
  : option (constraints * list (entry body commitment)) :=
  match e_eci e with
  | None => Some (c, [])
  | Some (len, empty_len) =>
    match comet_checked_add c len with
    | Some c' => Some (c', [EItem (IEci len EciGood)])
    | None => match comet_checked_add c empty_len with
              | Some c' => Some (c', [EItem (IEci empty_len EciUndecodable)])
              | None => None
              end
    end
  end.

Definition lprepare_before_a321bb4 (e : env) (s0 : lstate) (queue : list ltx) (max_tx_bytes : Z)
  : prepared lstate body commitment + prep_error :=
  match bsc_new max_tx_bytes (e_typed e) with
  | None => inr PSize
  | Some c0 =>
    match add_upgrade e c0 with
    | None => inr PItemSize
    | Some (c1, upg) =>
      match add_eci_before_a321bb4 e c1 with
      | None => inr PItemSize
      | Some (c2, eci) =>
        match prepare_loop lexec (mkL c2 G_BUNDLEABLE_GENERAL s0 [] []) queue with
        | None => inr PGrow
        | Some l =>
          let incl := rev (l_included l) in
          inl (mkP incl (l_state l) (rev (l_removed l)) (l_c l)
                   (EItem (IDatasRoot (lcommit_datas incl (l_state l)))
                    :: EItem (IIdsRoot (lcommit_ids incl (l_state l)))
                    :: upg ++ eci ++ map (fun t => ETx (honest_raw t)) incl))
        end
      end
    end
  end.

(** With the 4-byte extended commit info of a commit without votes and the 2-byte item holding
    empty bytes, max_tx_bytes = 71 produced a block within the limit that no process_proposal
    could parse (nor the proposer's own process_proposal, nor finalize_block). *)
Lemma prepare_before_a321bb4_rejected :
  exists (e : env) (s0 : lstate) (q : list ltx) (mx : Z) p,
    env_wf e /\ (mx <= Z.of_N I64_MAX)%Z /\
    lprepare_before_a321bb4 e s0 q mx = inl p /\
    constructible_at_start lconstruct s0 (p_included p) /\
    proposal_len (e_typed e) (p_entries p) <= Z.to_N mx /\
    lprocess e s0 (p_entries p) = Reject RParse.
Proof.
  pose (e := mkEnv true None (Some (4, 2))).
  destruct (lprepare_before_a321bb4 e st0 [t_transfer] 71) as [p|] eqn:E; [|vm_compute in E; discriminate].
  exists e, st0, [t_transfer], 71%Z, p.
  split; [intros H; discriminate|].
  split; [vm_compute; discriminate|].
  split; [exact E|].
  vm_compute in E. inversion E; subst p; clear E. cbn [p_included p_entries].
  split; [constructor|].
  split; [vm_compute; discriminate|].
  vm_compute. reflexivity.
Qed.

(** With the same queue and [max_tx_bytes] 71 or 72, [lprepare] proposes nothing when both items
    have 4 bytes, and an acceptable block when the empty one is the shorter (4 against 294). *)
Example ex_same_input_now :
  lprepare env0 st0 [t_transfer] 71 = inr PItemSize /\
  match lprepare env_votes st0 [t_transfer] 72 with
  | inl p => lprocess env_votes st0 (p_entries p) = Accept
  | inr _ => False
  end.
Proof. vm_compute. split; reflexivity. Qed.

(** The instantiated commitment comparison is reflexive (hypothesis of prepare_accepted). *)
Lemma list_eqb_refl {A} (eqb : A -> A -> bool) :
  (forall x, eqb x x = true) -> forall l, list_eqb eqb l l = true.
Proof. intros H l; induction l as [|x l IH]; cbn; [reflexivity|]. rewrite H, IH. reflexivity. Qed.

Lemma commitment_eqb_refl c : commitment_eqb c c = true.
Proof.
  apply list_eqb_refl. intros [r ds]. cbn. rewrite N.eqb_refl. cbn.
  apply list_eqb_refl. apply N.eqb_refl.
Qed.
