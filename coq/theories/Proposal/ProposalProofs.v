(** C06 — proofs of the statements of ProposalSpec.v about ProposalModel.v; the last statement,
    [process_rejects_each] with its vocabulary [bad_proposal], is made here, at the end. *)
From Astria Require Import Base.Bounded Proposal.ProposalModel Proposal.ProposalSpec.
From Coq Require Import ZArith.
Open Scope N_scope.

Lemma seq_has_space_spec c n :
  cur_seq c <= max_seq c -> (seq_has_space c n = true <-> cur_seq c + n <= max_seq c).
Proof.
  intros H. unfold seq_has_space, saturating_sub. rewrite N.leb_le. lia.
Qed.

Lemma comet_has_space_spec c n :
  cur_comet c <= max_comet c -> (comet_has_space c n = true <-> cur_comet c + n <= max_comet c).
Proof.
  intros H. unfold comet_has_space, saturating_sub. rewrite N.leb_le. lia.
Qed.

Lemma seq_checked_add_spec c n :
  seq_checked_add c n =
  if (cur_seq c + n <=? USIZE_MAX) && (cur_seq c + n <=? max_seq c)
  then Some (mkC (max_seq c) (max_comet c) (cur_seq c + n) (cur_comet c)) else None.
Proof. unfold seq_checked_add, checked_add. destruct (cur_seq c + n <=? USIZE_MAX); reflexivity. Qed.

Lemma comet_checked_add_spec c n :
  comet_checked_add c n =
  if (cur_comet c + n <=? USIZE_MAX) && (cur_comet c + n <=? max_comet c)
  then Some (mkC (max_seq c) (max_comet c) (cur_seq c) (cur_comet c + n)) else None.
Proof. unfold comet_checked_add, checked_add. destruct (cur_comet c + n <=? USIZE_MAX); reflexivity. Qed.

Lemma comet_checked_add_Some c n c' :
  comet_checked_add c n = Some c' ->
  cur_comet c + n <= max_comet c /\ c' = mkC (max_seq c) (max_comet c) (cur_seq c) (cur_comet c + n).
Proof.
  rewrite comet_checked_add_spec.
  destruct (cur_comet c + n <=? USIZE_MAX); cbn [andb]; [|discriminate].
  destruct (N.leb_spec (cur_comet c + n) (max_comet c)); [|discriminate].
  intros E; injection E as <-. split; [assumption|reflexivity].
Qed.

Definition room (c : constraints) (n m : N) : bool :=
  (cur_seq c + n <=? USIZE_MAX) && (cur_seq c + n <=? max_seq c) &&
  ((cur_comet c + m <=? USIZE_MAX) && (cur_comet c + m <=? max_comet c)).

Lemma room_iff c n m :
  room c n m = true <->
  cur_seq c + n <= USIZE_MAX /\ cur_seq c + n <= max_seq c /\
  cur_comet c + m <= USIZE_MAX /\ cur_comet c + m <= max_comet c.
Proof. unfold room. rewrite !andb_true_iff, !N.leb_le. tauto. Qed.

Section Proofs.
  Context {S T C : Type}.
  Variable exec : S -> tx T -> outcome S.
  Variable construct : S -> tx T -> bool.
  Variable commit_datas commit_ids : list (tx T) -> S -> C.
  Variable ceqb : C -> C -> bool.

  Notation run_nonfatal := (run_nonfatal exec).
  Notation prepare_step := (prepare_step exec).
  Notation prepare_loop := (prepare_loop exec).
  Notation process_step := (process_step exec).
  Notation process_loop := (process_loop exec).

  Lemma run_nonfatal_app s0 a s1 b s2 :
    run_nonfatal s0 a s1 -> run_nonfatal s1 b s2 -> run_nonfatal s0 (a ++ b) s2.
  Proof.
    induction 1; intros Hb; cbn [app]; [assumption| |].
    - eapply rn_ok; eauto.
    - eapply rn_nf; eauto.
  Qed.

  Lemma push_spec (l : loop_state S T) t s' rm :
    push l t s' rm =
    if room (l_c l) (tx_seq t) (tx_len t)
    then SContinue (mkL (mkC (max_seq (l_c l)) (max_comet (l_c l))
                             (cur_seq (l_c l) + tx_seq t) (cur_comet (l_c l) + tx_len t))
                        (tx_group t) s' (t :: l_included l)
                        (if rm then t :: l_removed l else l_removed l))
    else SError.
  Proof.
    unfold push, room. rewrite seq_checked_add_spec.
    destruct ((cur_seq (l_c l) + tx_seq t <=? USIZE_MAX) && (cur_seq (l_c l) + tx_seq t <=? max_seq (l_c l)));
      [|reflexivity].
    rewrite comet_checked_add_spec. cbn [andb max_seq max_comet cur_seq cur_comet].
    destruct ((cur_comet (l_c l) + tx_len t <=? USIZE_MAX) && (cur_comet (l_c l) + tx_len t <=? max_comet (l_c l)));
      reflexivity.
  Qed.

  (** What both loops do, read forwards: exactly [txs] are included, in this order; nothing is
      said of [l_removed], all that a transaction looked at and left out can change. *)
  Record steps (l : loop_state S T) (txs : list (tx T)) (l' : loop_state S T) : Prop := mkSteps {
    st_included : l_included l' = rev txs ++ l_included l;
    st_max : max_seq (l_c l') = max_seq (l_c l) /\ max_comet (l_c l') = max_comet (l_c l);
    st_seq : cur_seq (l_c l') = cur_seq (l_c l) + seq_total txs;
    st_comet : cur_comet (l_c l') = cur_comet (l_c l) + len_total txs;
    st_le : cur_seq (l_c l) <= max_seq (l_c l) -> cur_comet (l_c l) <= max_comet (l_c l) ->
            cur_seq (l_c l') <= max_seq (l_c l') /\ cur_comet (l_c l') <= max_comet (l_c l');
    st_group : nonincreasing_from (l_group l) (map tx_group txs);
    st_run : run_nonfatal (l_state l) txs (l_state l') }.

  Lemma steps_nil l : steps l [] l.
  Proof.
    constructor; unfold seq_total, len_total; cbn [rev app map sumN nonincreasing_from];
      try lia; auto. constructor.
  Qed.

  Lemma steps_push l t s' rm l1 txs l' :
    tx_group t <= l_group l -> run_nonfatal (l_state l) [t] s' ->
    push l t s' rm = SContinue l1 -> steps l1 txs l' -> steps l (t :: txs) l'.
  Proof.
    intros Hg Hr. rewrite push_spec. destruct (room _ _ _) eqn:Hroom; [|discriminate].
    apply room_iff in Hroom. intros E; injection E as <-.
    intros [Hi [Hm1 Hm2] Hs Hc Hle Hgr Hrun].
    cbn [l_c l_group l_state l_included max_seq max_comet cur_seq cur_comet] in *.
    constructor.
    - rewrite Hi. cbn [rev]. rewrite <- app_assoc. reflexivity.
    - split; assumption.
    - rewrite Hs. unfold seq_total. cbn [map sumN]. lia.
    - rewrite Hc. unfold len_total. cbn [map sumN]. lia.
    - intros _ _. apply Hle; lia.
    - split; assumption.
    - apply (run_nonfatal_app _ [t] s'); assumption.
  Qed.

  Lemma steps_removed l rm txs l' :
    steps (mkL (l_c l) (l_group l) (l_state l) (l_included l) rm) txs l' -> steps l txs l'.
  Proof. intros []; constructor; assumption. Qed.

  Lemma process_step_steps l t l1 txs l' :
    process_step l t = inl l1 -> steps l1 txs l' -> steps l (t :: txs) l'.
  Proof.
    unfold ProposalModel.process_step.
    destruct (seq_has_space (l_c l) (tx_seq t)); cbn [negb]; [|discriminate].
    destruct (N.ltb_spec (l_group l) (tx_group t)) as [|Hg]; [discriminate|].
    destruct (exec (l_state l) t) as [s'| | |] eqn:E; try discriminate.
    - destruct (push l t s' false) as [|l2|] eqn:P; try discriminate.
      intros H; injection H as <-. apply (steps_push l t s' false); [exact Hg| |exact P].
      eapply rn_ok; [exact E|apply rn_nil].
    - destruct (push l t (l_state l) true) as [|l2|] eqn:P; try discriminate.
      intros H; injection H as <-. apply (steps_push l t (l_state l) true); [exact Hg| |exact P].
      eapply rn_nf; [exact E|apply rn_nil].
  Qed.

  Lemma prepare_step_steps l t l1 txs l' :
    prepare_step l t = SContinue l1 -> steps l1 txs l' -> steps l txs l' \/ steps l (t :: txs) l'.
  Proof.
    unfold ProposalModel.prepare_step.
    destruct (comet_has_space (l_c l) (tx_len t)); cbn [negb]; [|discriminate].
    destruct (seq_has_space (l_c l) (tx_seq t)); cbn [negb];
      [|intros E; injection E as <-; left; assumption].
    destruct (N.ltb_spec (l_group l) (tx_group t)) as [|Hg];
      [intros E; injection E as <-; left; assumption|].
    destruct (exec (l_state l) t) as [s'| | |] eqn:E.
    - intros P H. right. apply (steps_push l t s' false l1); [exact Hg| |exact P|exact H].
      eapply rn_ok; [exact E|apply rn_nil].
    - intros P H. right. apply (steps_push l t (l_state l) true l1); [exact Hg| |exact P|exact H].
      eapply rn_nf; [exact E|apply rn_nil].
    - intros E1; injection E1 as <-. left; assumption.
    - intros E1; injection E1 as <-. intros H. left. exact (steps_removed _ _ _ _ H).
  Qed.

  Lemma process_loop_steps txs : forall l l', process_loop l txs = inl l' -> steps l txs l'.
  Proof.
    induction txs as [|t r IH]; intros l l'; cbn [ProposalModel.process_loop].
    - intros E; injection E as <-. apply steps_nil.
    - destruct (process_step l t) as [l1|] eqn:E; [|discriminate].
      intros H. eapply process_step_steps; [exact E|apply IH, H].
  Qed.

  Lemma prepare_loop_steps q : forall l l',
    prepare_loop l q = Some l' -> exists txs, steps l txs l' /\ incl txs q.
  Proof.
    induction q as [|t q IH]; intros l l'; cbn [ProposalModel.prepare_loop].
    - intros E; injection E as <-. exists []. split; [apply steps_nil|apply incl_refl].
    - destruct (prepare_step l t) as [|l1|] eqn:E; [| |discriminate].
      + intros E1; injection E1 as <-. exists []. split; [apply steps_nil|apply incl_nil_l].
      + intros H. destruct (IH _ _ H) as (txs & Hs & Hi).
        destruct (prepare_step_steps _ _ _ _ _ E Hs) as [Hs'|Hs'].
        * exists txs. split; [exact Hs'|apply incl_tl, Hi].
        * exists (t :: txs). split; [exact Hs'|].
          apply incl_cons; [left; reflexivity|apply incl_tl, Hi].
  Qed.

  Lemma bsc_new_Some mx typed c0 :
    bsc_new mx typed = Some c0 ->
    (0 <= mx)%Z /\ commitments_size typed <= Z.to_N mx /\
    c0 = mkC MAX_SEQ (Z.to_N mx) 0 (commitments_size typed).
  Proof.
    unfold bsc_new. destruct (Z.ltb_spec mx 0); [discriminate|].
    destruct (N.ltb_spec (Z.to_N mx) (commitments_size typed)); [discriminate|].
    intros H1; inversion H1; auto.
  Qed.

  Definition counted (typed : bool) (c : constraints) (items : list (entry T C)) (c' : constraints) : Prop :=
    c' = mkC (max_seq c) (max_comet c) (cur_seq c) (cur_comet c + proposal_len typed items) /\
    (cur_comet c <= max_comet c -> cur_comet c' <= max_comet c).

  Lemma counted_nil typed c : counted typed c [] c.
  Proof.
    unfold counted, proposal_len. cbn [map sumN]. rewrite N.add_0_r. destruct c; split; auto.
  Qed.

  Lemma counted_item typed c (i : item C) c' :
    comet_checked_add c (item_len typed i) = Some c' -> counted typed c [EItem i] c'.
  Proof.
    intros H. apply comet_checked_add_Some in H as [Hle ->].
    unfold counted, proposal_len. cbn [map sumN entry_len cur_comet]. rewrite N.add_0_r.
    split; [reflexivity|intros _; exact Hle].
  Qed.

  Definition upgrade_item (e : env) (upg : list (entry T C)) : Prop :=
    (e_upgrade e = None /\ upg = []) \/
    (exists len h, e_upgrade e = Some (len, h) /\ upg = [EItem (IUpgrade len h)]).

  Definition eci_item (e : env) (eci : list (entry T C)) : Prop :=
    (e_eci e = None /\ eci = []) \/
    (exists len el l, e_eci e = Some (len, el) /\ (l = len \/ l = el) /\
                      eci = [EItem (IEci l EciGood)]).

  Lemma add_upgrade_Some e c c' upg :
    add_upgrade e c = Some (c', upg) -> counted (e_typed e) c upg c' /\ upgrade_item e upg.
  Proof.
    unfold add_upgrade, upgrade_item. destruct (e_upgrade e) as [[len h]|].
    - destruct (comet_checked_add c len) as [c1|] eqn:E; [|discriminate].
      intros H; injection H as <- <-. split; [apply counted_item; exact E|right; eauto].
    - intros H; injection H as <- <-. split; [apply counted_nil|left; auto].
  Qed.

  Lemma add_eci_Some e c c' eci :
    add_eci e c = Some (c', eci) -> counted (e_typed e) c eci c' /\ eci_item e eci.
  Proof.
    unfold add_eci, eci_item. destruct (e_eci e) as [[len el]|].
    - destruct (comet_checked_add c len) as [c1|] eqn:E.
      + intros H; injection H as <- <-. split; [apply counted_item; exact E|].
        right. exists len, el, len. auto.
      + destruct (comet_checked_add c el) as [c2|] eqn:E2; [|discriminate].
        intros H; injection H as <- <-. split; [apply counted_item; exact E2|].
        right. exists len, el, el. auto.
    - intros H; injection H as <- <-. split; [apply counted_nil|left; auto].
  Qed.

  Lemma proposal_len_entries typed cd ci upg eci (txs : list (tx T)) :
    proposal_len typed (EItem (IDatasRoot cd) :: EItem (IIdsRoot ci)
                        :: upg ++ eci ++ map (fun t => ETx (C:=C) (honest_raw t)) txs)
    = commitments_size typed + proposal_len typed upg + proposal_len typed eci + len_total txs.
  Proof.
    unfold proposal_len, len_total, commitments_size. cbn [map sumN entry_len item_len].
    rewrite !map_app, !sumN_app, map_map. cbn [entry_len honest_raw r_tx].
    change (map (fun x : tx T => tx_len x) txs) with (map tx_len txs). lia.
  Qed.

  Lemma prepare_facts e s0 q mx p :
    prepare exec commit_datas commit_ids e s0 q mx = inl p ->
    exists upg eci B l,
      (0 <= mx)%Z /\ B <= Z.to_N mx /\
      B = commitments_size (e_typed e) + proposal_len (e_typed e) upg + proposal_len (e_typed e) eci /\
      upgrade_item e upg /\ eci_item e eci /\
      steps (mkL (mkC MAX_SEQ (Z.to_N mx) 0 B) G_BUNDLEABLE_GENERAL s0 [] []) (p_included p) l /\
      incl (p_included p) q /\ p_state p = l_state l /\
      p_entries p = EItem (IDatasRoot (commit_datas (p_included p) (p_state p)))
                    :: EItem (IIdsRoot (commit_ids (p_included p) (p_state p)))
                    :: upg ++ eci ++ map (fun t => ETx (honest_raw t)) (p_included p).
  Proof.
    unfold prepare.
    destruct (bsc_new mx (e_typed e)) as [c0|] eqn:E0; [|discriminate].
    destruct (add_upgrade e c0) as [[c1 upg]|] eqn:E1; [|discriminate].
    destruct (add_eci e c1) as [[c2 eci]|] eqn:E2; [|discriminate].
    destruct (prepare_loop _ q) as [l|] eqn:E3; [|discriminate].
    intros H; injection H as <-. cbn [p_included p_state p_entries].
    apply bsc_new_Some in E0 as (Hmx & Hsz & ->).
    apply add_upgrade_Some in E1 as [[-> U] Ucase]. apply add_eci_Some in E2 as [[-> Ec] Ecase].
    cbn [max_seq max_comet cur_seq cur_comet] in *.
    destruct (prepare_loop_steps _ _ _ E3) as (txs & St & Hi).
    rewrite (st_included _ _ _ St), app_nil_r, rev_involutive.
    exists upg, eci; eexists; exists l. split; [exact Hmx|]. split; [exact (Ec (U Hsz))|]. split; [reflexivity|].
    split; [exact Ucase|]. split; [exact Ecase|]. split; [exact St|]. split; [exact Hi|].
    split; reflexivity.
  Qed.

  Theorem prepare_within_limits : stmt_prepare_within_limits exec commit_datas commit_ids.
  Proof.
    intros e s0 q mx p H.
    destruct (prepare_facts _ _ _ _ _ H) as (upg & eci & B & l & Hmx & HB & EB & _ & _ & St & _ & _ & PE).
    destruct St as [_ [M1 M2] Sq Cm Le _ _]. cbn [l_c max_seq max_comet cur_seq cur_comet] in *.
    destruct Le as [Le1 Le2]; [unfold MAX_SEQ; lia|exact HB|].
    split; [exact Hmx|]. split.
    - rewrite PE, proposal_len_entries, <- EB, <- Cm, <- M2. exact Le2.
    - rewrite Sq, M1 in Le1. exact Le1.
  Qed.

  Theorem prepare_group_sorted : stmt_prepare_group_sorted exec commit_datas commit_ids.
  Proof.
    intros e s0 q mx p H.
    destruct (prepare_facts _ _ _ _ _ H) as (upg & eci & B & l & _ & _ & _ & _ & _ & St & _).
    exact (st_group _ _ _ St).
  Qed.

  Theorem prepare_only_nonfatal : stmt_prepare_only_nonfatal exec commit_datas commit_ids.
  Proof.
    intros e s0 q mx p H.
    destruct (prepare_facts _ _ _ _ _ H) as (upg & eci & B & l & _ & _ & _ & _ & _ & St & Hi & PS & _).
    split; [rewrite PS; exact (st_run _ _ _ St)|exact Hi].
  Qed.

  Lemma construct_all_Some s0 raws txs :
    construct_all construct s0 raws = Some txs -> Forall2 (good_entry (C:=C) construct s0) raws txs.
  Proof.
    revert txs. induction raws as [|x r IH]; intros txs; cbn [construct_all].
    - intros H; inversion H; constructor.
    - destruct (construct_one construct s0 x) as [t|] eqn:E1; [|discriminate].
      destruct (construct_all construct s0 r) as [ts|] eqn:E2; [|discriminate].
      intros H; inversion H; subst. constructor; [|auto].
      unfold construct_one in E1. destruct x as [i|rw]; [discriminate|].
      destruct (r_decodable rw) eqn:D; [|discriminate].
      destruct (r_signed rw) eqn:Sg; [|discriminate].
      destruct (construct s0 (r_tx rw)) eqn:K; [|discriminate].
      cbn in E1. inversion E1; subst. exists rw. auto.
  Qed.

  Theorem process_rejects_bad : stmt_process_rejects_bad exec construct commit_datas commit_ids ceqb.
  Proof.
    intros e s0 p. unfold process.
    destruct (parse e p) as [pd|] eqn:EP; [|discriminate].
    destruct (match pd_eci pd with Some EciInvalid => true | _ => false end); [discriminate|].
    destruct (upgrade_matches e (pd_upgrade pd)); cbn [negb]; [|discriminate].
    destruct (construct_all construct s0 (pd_raw pd)) as [txs|] eqn:EC; [|discriminate].
    destruct (process_loop _ txs) as [l|r] eqn:EL; [|discriminate].
    destruct (ceqb (pd_datas pd) (commit_datas txs (l_state l))) eqn:E1; cbn [negb]; [|discriminate].
    destruct (ceqb (pd_ids pd) (commit_ids txs (l_state l))) eqn:E2; cbn [negb]; [|discriminate].
    intros _.
    destruct (process_loop_steps _ _ _ EL) as [_ [M1 _] Sq _ Le Gr Run].
    cbn [l_c l_group l_state bsc_unlimited max_seq max_comet cur_seq cur_comet] in *.
    destruct Le as [Le1 _];
      [unfold MAX_SEQ; lia|unfold USIZE_MAX, U64_MAX, commitments_size, root_item_len; lia|].
    exists pd, txs, (l_state l). split; [reflexivity|].
    split; [apply construct_all_Some; exact EC|].
    split; [exact Gr|]. split; [exact Run|]. split; [|split; assumption].
    rewrite Sq, M1 in Le1. exact Le1.
  Qed.

  (** the converse of [process_loop_steps] *)
  Lemma process_loop_replay txs : forall l s1,
    max_seq (l_c l) <= USIZE_MAX -> max_comet (l_c l) <= USIZE_MAX ->
    cur_seq (l_c l) + seq_total txs <= max_seq (l_c l) ->
    cur_comet (l_c l) + len_total txs <= max_comet (l_c l) ->
    nonincreasing_from (l_group l) (map tx_group txs) ->
    run_nonfatal (l_state l) txs s1 ->
    exists l', process_loop l txs = inl l' /\ l_state l' = s1.
  Proof.
    induction txs as [|t r IH]; intros l s1 Ms Mc Hst Hct Hg Hr; cbn [ProposalModel.process_loop].
    - inversion Hr; subst. eauto.
    - unfold seq_total, len_total in Hst, Hct. cbn [map sumN] in Hst, Hct.
      fold (seq_total r) in Hst. fold (len_total r) in Hct. destruct Hg as [Hg1 Hg2].
      assert (Hsp : seq_has_space (l_c l) (tx_seq t) = true) by (apply seq_has_space_spec; lia).
      assert (Hgr : (l_group l <? tx_group t) = false) by (apply N.ltb_ge; exact Hg1).
      assert (Hroom : room (l_c l) (tx_seq t) (tx_len t) = true) by (apply room_iff; lia).
      assert (Next : forall s' rm, run_nonfatal s' r s1 ->
                exists l', process_loop
                             (mkL (mkC (max_seq (l_c l)) (max_comet (l_c l))
                                       (cur_seq (l_c l) + tx_seq t) (cur_comet (l_c l) + tx_len t))
                                  (tx_group t) s' (t :: l_included l) rm) r = inl l' /\ l_state l' = s1).
      { intros s' rm Hr'.
        apply IH; cbn [l_c l_group l_state max_seq max_comet cur_seq cur_comet]; try lia; assumption. }
      unfold ProposalModel.process_step. rewrite Hsp, Hgr. cbn [negb].
      inversion Hr as [|? ? sb ? ? Hex Hrest|? ? ? ? Hex Hrest]; subst;
        rewrite Hex, push_spec, Hroom; apply Next; assumption.
  Qed.

  Lemma construct_all_honest s0 txs :
    constructible_at_start construct s0 txs ->
    construct_all construct s0 (map (fun t => ETx (C:=C) (honest_raw t)) txs) = Some txs.
  Proof.
    induction 1 as [|t r Ht _ IH]; cbn [map construct_all]; [reflexivity|].
    cbn. rewrite Ht, IH. reflexivity.
  Qed.

  Lemma parse_honest e cd ci upg eci incl :
    env_wf e -> upgrade_item e upg -> eci_item e eci ->
    exists pd,
      parse e (EItem (IDatasRoot cd) :: EItem (IIdsRoot ci)
               :: upg ++ eci ++ map (fun t => ETx (honest_raw t)) incl) = Some pd /\
      pd_datas pd = cd /\ pd_ids pd = ci /\
      pd_raw pd = map (fun t => ETx (honest_raw t)) incl /\
      upgrade_matches e (pd_upgrade pd) = true /\
      match pd_eci pd with Some EciInvalid => true | _ => false end = false.
  Proof.
    intros Hwf Ucase Ecase. unfold parse. destruct (e_typed e) eqn:Ty.
    - (* typed data, four cases: with or without the upgrade item, with or without the extended
         commit info; with neither, [parse] looks at the first transaction to see that it is no
         upgrade item *)
      destruct Ucase as [[Un ->]|(len & h & Us & ->)];
        destruct Ecase as [[En ->]|(elen & el & l & Es & _ & ->)]; cbn [app]; rewrite ?En, ?Es;
        [destruct incl as [|t incl]; cbn [map]|..].
      all: eexists; (split; [reflexivity|]); cbn; unfold upgrade_matches;
        rewrite ?Un, ?Us, ?N.eqb_refl; repeat split.
    - destruct (Hwf Ty) as [Un En].
      destruct Ucase as [[_ ->]|(len & h & Us & _)]; [|congruence].
      destruct Ecase as [[_ ->]|(elen & el & l & Es & _)]; [|congruence].
      cbn [app]. eexists; (split; [reflexivity|]); cbn. unfold upgrade_matches. rewrite Un.
      repeat split.
  Qed.

  (** [mx <= i64::MAX]: ProcessProposal's own accounting starts from the two typed roots (4 bytes
      more than the untyped ones) and is limited by [usize::MAX] only; [max_tx_bytes] being an
      [i64] keeps it from overflowing on a block that fits [max_tx_bytes]. *)
  Theorem prepare_accepted : stmt_prepare_accepted exec construct commit_datas commit_ids ceqb.
  Proof.
    intros e s0 q mx p Hrefl Hwf Hmx H Hcons.
    destruct (prepare_facts _ _ _ _ _ H) as (upg & eci & B & l & _ & _ & EB & Ucase & Ecase & St & _ & PS & PE).
    destruct (prepare_within_limits _ _ _ _ _ H) as (_ & W1 & W2).
    destruct (parse_honest e (commit_datas (p_included p) (p_state p))
                (commit_ids (p_included p) (p_state p)) upg eci (p_included p) Hwf Ucase Ecase)
      as (pd & HP & D1 & D2 & D3 & D4 & D5).
    unfold process. rewrite PE, HP, D5, D4. cbn [negb]. rewrite D3, (construct_all_honest s0 _ Hcons).
    destruct (process_loop_replay (p_included p) (mkL bsc_unlimited G_BUNDLEABLE_GENERAL s0 [] []) (p_state p))
      as (l' & R1 & R2); cbn [l_c l_group l_state bsc_unlimited max_seq max_comet cur_seq cur_comet].
    - unfold MAX_SEQ, USIZE_MAX, U64_MAX; lia.
    - apply N.le_refl.
    - exact W2.
    - rewrite PE, proposal_len_entries in W1.
      assert (64 <= commitments_size (e_typed e)) by (destruct (e_typed e); cbn; lia).
      unfold I64_MAX in Hmx. unfold USIZE_MAX, U64_MAX, commitments_size, root_item_len. lia.
    - exact (st_group _ _ _ St).
    - rewrite PS. exact (st_run _ _ _ St).
    - rewrite R1, R2, D1, D2, !Hrefl. reflexivity.
  Qed.

  Lemma run_nonfatal_det s0 txs s1 s2 :
    run_nonfatal s0 txs s1 -> run_nonfatal s0 txs s2 -> s1 = s2.
  Proof.
    intros H1; revert s2. induction H1 as [s|s t sa r sb Hex Hr IH|s t r sb Hex Hr IH]; intros s2 H2.
    - inversion H2; reflexivity.
    - inversion H2; subst; try congruence.
      match goal with Hx : exec s t = ExOk _ |- _ => rewrite Hex in Hx; inversion Hx; subst end.
      auto.
    - inversion H2; subst; try congruence. auto.
  Qed.

  Lemma good_entries_map s0 raws txs :
    Forall2 (good_entry (C:=C) construct s0) (map (fun r => ETx r) raws) txs ->
    txs = map r_tx raws /\
    Forall (fun r => r_decodable r = true /\ r_signed r = true /\ construct s0 (r_tx r) = true) raws.
  Proof.
    revert txs. induction raws as [|r raws IH]; intros txs H; cbn [map] in *.
    - inversion H; subst. split; constructor.
    - inversion H as [|x t xs ts Hg Hrest]; subst.
      destruct (IH _ Hrest) as [-> HF].
      destruct Hg as (r' & E & Et & D & Sg & K). inversion E; subst r'.
      split; [cbn; congruence|]. constructor; [|assumption]. rewrite Et. auto.
  Qed.

  Definition bad_proposal (s0 : S) (pd : parsed T C) (raws : list (rawtx T)) : Prop :=
    let txs := map r_tx raws in
    Exists (fun r => r_decodable r = false \/ r_signed r = false \/ construct s0 (r_tx r) = false) raws
    \/ ~ group_sorted txs
    \/ MAX_SEQ < seq_total txs
    \/ (forall s1, ~ run_nonfatal s0 txs s1)
    \/ (exists s1, run_nonfatal s0 txs s1 /\
         (ceqb (pd_datas pd) (commit_datas txs s1) = false \/
          ceqb (pd_ids pd) (commit_ids txs s1) = false)).

  Theorem process_rejects_each e s0 p :
    (parse (T:=T) (C:=C) e p = None ->
       process exec construct commit_datas commit_ids ceqb e s0 p = Reject RParse) /\
    (forall pd, parse e p = Some pd ->
       (exists i, In (EItem i) (pd_raw pd)) ->
       process exec construct commit_datas commit_ids ceqb e s0 p <> Accept) /\
    (forall pd raws, parse e p = Some pd -> pd_raw pd = map (fun r => ETx r) raws ->
       bad_proposal s0 pd raws ->
       process exec construct commit_datas commit_ids ceqb e s0 p <> Accept).
  Proof.
    split; [|split].
    - intros H. unfold process. rewrite H. reflexivity.
    - intros pd HP (i & Hi) HA.
      destruct (process_rejects_bad _ _ _ HA) as (pd' & txs & s1 & HP' & HG & _).
      rewrite HP in HP'; inversion HP'; subst pd'.
      clear - HG Hi. induction HG as [|x t xs ts Hg _ IH]; [destruct Hi|].
      destruct Hi as [->|Hi]; [|auto].
      destruct Hg as (r & E & _). discriminate.
    - intros pd raws HP HR Hbad HA.
      destruct (process_rejects_bad _ _ _ HA) as (pd' & txs & s1 & HP' & HG & HS & HRun & HSeq & HC1 & HC2).
      rewrite HP in HP'; inversion HP'; subst pd'. rewrite HR in HG.
      destruct (good_entries_map _ _ _ HG) as [-> HF].
      destruct Hbad as [Hb|[Hb|[Hb|[Hb|Hb]]]].
      + apply Exists_exists in Hb. destruct Hb as (r & Hin & Hr).
        rewrite Forall_forall in HF. destruct (HF r Hin) as (D & Sg & K).
        destruct Hr as [Hr|[Hr|Hr]]; congruence.
      + auto.
      + apply N.lt_nge in Hb. auto.
      + exact (Hb s1 HRun).
      + destruct Hb as (s2 & HRun2 & Hc).
        rewrite (run_nonfatal_det _ _ _ _ HRun2 HRun) in Hc. destruct Hc; congruence.
  Qed.

End Proofs.
