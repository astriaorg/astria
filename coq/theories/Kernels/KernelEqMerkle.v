(** Hand-written (NOT generated): every definition that tools/rs2v.py regenerates from
    crates/astria-merkle/src/lib.rs into Kernels/KMerkle.v is equal to the hand-written model
    that the big proofs are about.  When the Rust source of a kernel changes its meaning, the
    regenerated definition changes and the corresponding [keq_] lemma stops compiling.

    Conventions: a generated kernel returns [option T] ([None] = panic).  Where the model
    function has the same type the lemma is [K.f args = Model.f args]; where the model function
    is panic-free and returns a plain [T] the lemma is [K.f args = Some (Model.f args)], which
    also says that the Rust function cannot panic. *)
From Astria Require Import Base.KernelLib.
From Astria Require Kernels.KMerkle.
From Astria Require Merkle.MerkleModel.

Module KM := Astria.Kernels.KMerkle.
Module MM := Astria.Merkle.MerkleModel.

Lemma keq_lib_lnot x : lnot U64_MAX x = MM.lnot64 x.
Proof. conv. Qed.
Lemma keq_lib_shl x k : shl 64 x k = MM.shl64 x k.
Proof. conv. Qed.
Lemma keq_lib_next_power_of_two x : next_power_of_two U64_MAX x = MM.next_power_of_two x.
Proof. conv. Qed.
Lemma keq_lib_wrapping_add1 x : wrapping_add 64 x 1 = MM.wrapping_add1 x.
Proof. conv. Qed.
Lemma keq_lib_assert b : assert b = MM.assert b.
Proof. conv. Qed.
Lemma keq_lib_bind {A B} (x : option A) (f : A -> option B) : bind x f = MM.bind x f.
Proof. conv. Qed.

Lemma keq_leaf_index_to_tree_index : forall j,
  KM.leaf_index_to_tree_index j = MM.leaf_index_to_tree_index j.
Proof. conv. Qed.

Lemma keq_last_set_bit : forall x, KM.last_set_bit x = MM.last_set_bit x.
Proof. conv. Qed.

Lemma keq_last_zero_bit : forall x, KM.last_zero_bit x = MM.last_zero_bit x.
Proof. conv. Qed.

Lemma keq_perfect_parent : forall i, KM.perfect_parent i = MM.perfect_parent i.
Proof. conv. Qed.

Lemma keq_is_branch : forall i, KM.is_branch i = Some (MM.is_branch i).
Proof. conv. Qed.

Lemma keq_perfect_left_child : forall p, KM.perfect_left_child p = MM.perfect_left_child p.
Proof. conv. Qed.

(** the Rust code evaluates [last_zero_bit(p)] twice, the model once *)
Lemma keq_perfect_right_child : forall p, KM.perfect_right_child p = MM.perfect_right_child p.
Proof.
  intro p. unfold KM.perfect_right_child, MM.perfect_right_child.
  rewrite keq_is_branch, keq_last_zero_bit. cbn [bind].
  destruct (MM.is_branch p); cbn [assert MM.assert bind MM.bind]; [|reflexivity].
  destruct (MM.last_zero_bit p); reflexivity.
Qed.

Lemma keq_is_perfect : forall n, KM.is_perfect n = MM.is_perfect n.
Proof. conv. Qed.

Lemma keq_perfect_root : forall n, KM.perfect_root n = MM.perfect_root n.
Proof. conv. Qed.

Lemma keq_complete_root : forall n, KM.complete_root n = MM.complete_root n.
Proof. conv. Qed.

Lemma keq_complete_parent_loop : forall fuel i n,
  KM.complete_parent_loop fuel i n = MM.complete_parent_loop fuel i n.
Proof.
  induction fuel as [|f IH]; intros i n; [reflexivity|].
  cbn [KM.complete_parent_loop MM.complete_parent_loop].
  rewrite keq_perfect_parent.
  destruct (MM.perfect_parent i) as [p|]; [|reflexivity].
  cbn [bind MM.bind]. destruct (p <? n); [reflexivity|apply IH].
Qed.

Lemma keq_complete_parent : forall i n, KM.complete_parent i n = MM.complete_parent i n.
Proof. intros. apply keq_complete_parent_loop. Qed.

Lemma keq_checked_complete_parent_loop : forall fuel i n,
  KM.checked_complete_parent_loop fuel i n = MM.checked_complete_parent_loop fuel i n.
Proof.
  induction fuel as [|f IH]; intros i n; [reflexivity|].
  cbn [KM.checked_complete_parent_loop MM.checked_complete_parent_loop].
  change MM.MAXU with U64_MAX.
  destruct (checked_add U64_MAX i 1) as [i1|]; [|reflexivity].
  rewrite keq_last_set_bit.
  destruct (MM.last_set_bit i1) as [z|]; [|reflexivity].
  cbn [bind].
  change (lnot U64_MAX (shl 64 z 1)) with (MM.lnot64 (MM.shl64 z 1)).
  destruct (N.land (N.lor z i) (MM.lnot64 (MM.shl64 z 1)) <? n); [reflexivity|apply IH].
Qed.

Lemma keq_checked_complete_parent : forall i n,
  KM.checked_complete_parent i n = MM.checked_complete_parent i n.
Proof. intros. apply keq_checked_complete_parent_loop. Qed.

Lemma keq_complete_left_child : forall p, KM.complete_left_child p = MM.complete_left_child p.
Proof. conv. Qed.

Lemma keq_complete_right_child : forall i n,
  KM.complete_right_child i n = MM.complete_right_child i n.
Proof.
  intros i n. unfold KM.complete_right_child, MM.complete_right_child.
  rewrite keq_is_branch, keq_perfect_right_child. cbn [bind].
  destruct (MM.is_branch i); cbn [assert MM.assert bind MM.bind]; [|reflexivity].
  destruct (i <? n); cbn [bind MM.bind]; [|reflexivity].
  destruct (MM.perfect_right_child i) as [r|]; cbn [bind MM.bind]; [|reflexivity].
  destruct (r <? n); [reflexivity|].
  change MM.MAXU with U64_MAX.
  destruct (checked_add U64_MAX i 1) as [i1|]; cbn [bind MM.bind]; [|reflexivity].
  destruct (checked_sub n i1) as [m|]; cbn [bind MM.bind]; [|reflexivity].
  rewrite keq_complete_root. reflexivity.
Qed.

Lemma keq_complete_parent_and_sibling : forall i n,
  KM.complete_parent_and_sibling i n = MM.complete_parent_and_sibling i n.
Proof.
  intros i n. unfold KM.complete_parent_and_sibling, MM.complete_parent_and_sibling.
  rewrite keq_complete_parent.
  destruct (i <? n); cbn [assert MM.assert bind MM.bind]; [|reflexivity].
  destruct (MM.complete_parent i n) as [p|]; cbn [bind MM.bind]; [|reflexivity].
  rewrite keq_complete_right_child, keq_complete_left_child. reflexivity.
Qed.

(** no model function: the Rust function is the comparison itself *)
Lemma keq_is_tree_index_in_tree : forall i n, KM.is_tree_index_in_tree i n = Some (i <? n).
Proof. conv. Qed.

Lemma keq_is_leaf_index_in_tree : forall i n,
  KM.is_leaf_index_in_tree i n = Some (MM.is_leaf_index_in_tree i n).
Proof.
  intros i n. unfold KM.is_leaf_index_in_tree, MM.is_leaf_index_in_tree.
  change MM.MAXU with U64_MAX.
  destruct (checked_mul U64_MAX i 2); reflexivity.
Qed.
