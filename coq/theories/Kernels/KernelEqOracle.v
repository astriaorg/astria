(** Hand-written (NOT generated): the FRAGMENTS that tools/rs2v.py cuts out of
    [validate_vote_extensions] (crates/astria-sequencer/src/app/vote_extension.rs: the
    zero-total test, the required-voting-power arithmetic and the final comparison ->
    Kernels/KOracleVote.v) and out of [median] (crates/astria-core/src/oracles/price_feed/utils.rs:
    the half/half/+1 computation on [Price(i128)] -> Kernels/KOracleMedian.v) are equal to the
    corresponding parts of Oracle/OracleModel.v that the C15 theorems use ([vve_tail], and the
    even-length branch of [median], which the model writes inline).

    A fragment = the statements found by anchored patterns (each must occur exactly once in the
    enclosing function), wrapped into a synthetic function whose arguments are the fragment's
    free variables.  [Result<T, _>] is [result T]; the model's [res] has error classes, which the
    regenerated code does not have ([res_to_kernel] forgets them). *)
From Astria Require Import Base.KernelLib.
From Astria Require Kernels.KOracleVote Kernels.KOracleMedian.
From Astria Require Oracle.OracleProofs.

Module KV := Astria.Kernels.KOracleVote.
Module KMed := Astria.Kernels.KOracleMedian.
Module OM := Astria.Oracle.OracleModel.
Module OP := Astria.Oracle.OracleProofs.

Definition res_to_kernel {A} (r : OM.res A) : option (result A) :=
  match r with
  | OM.Ok a => Some (ROk a)
  | OM.Err _ => Some RErr
  | OM.Panic => None
  end.

(** the [let required_voting_power = ...] statement alone: [total * 2 / 3 + 1], an error exactly
    when the doubling overflows; the division and the increment cannot fail *)
Lemma keq_required_voting_power : forall total,
  KV.required_voting_power total
  = Some (if total * 2 <=? U64_MAX then ROk (total * 2 / 3 + 1) else RErr).
Proof.
  intros total. unfold KV.required_voting_power, checked_mul.
  destruct (N.leb_spec (total * 2) U64_MAX) as [Hle|Hgt]; cbn [ok_or]; [|reflexivity].
  change (checked_div (total * 2) 3) with (Some (total * 2 / 3)). cbn [ok_or].
  unfold checked_add. rewrite (proj2 (N.leb_le _ _) (OP.required_fits _ Hle)). reflexivity.
Qed.

Lemma keq_voting_power_check_required : forall total sub,
  KV.voting_power_check total sub
  = if total =? 0 then Some RErr
    else do r <- KV.required_voting_power total;
         Some (match r with
               | ROk required => if required <=? sub then ROk tt else RErr
               | RErr => RErr
               end).
Proof.
  intros total sub. unfold KV.voting_power_check, KV.required_voting_power.
  destruct (total =? 0); [reflexivity|].
  destruct (checked_mul U64_MAX total 2) as [t2|]; cbn [ok_or bind]; [|reflexivity].
  change (checked_div t2 3) with (Some (t2 / 3)). cbn [ok_or].
  destruct (checked_add U64_MAX (t2 / 3) 1) as [r|]; cbn [ok_or bind]; [|reflexivity].
  destruct (r <=? sub); reflexivity.
Qed.

Lemma keq_voting_power_check : forall total sub,
  KV.voting_power_check total sub = res_to_kernel (OM.vve_tail total sub).
Proof.
  intros total sub.
  rewrite keq_voting_power_check_required, keq_required_voting_power, OP.vve_tail_eq.
  destruct (total =? 0); [reflexivity|].
  destruct (total * 2 <=? U64_MAX); cbn [bind]; [|reflexivity].
  destruct (total * 2 / 3 + 1 <=? sub); reflexivity.
Qed.

Lemma keq_i128_checked_add : forall a b, i_checked_add I128_MIN I128_MAX a b = OM.i128_checked_add a b.
Proof. intros a b. exact eq_refl. Qed.

Lemma keq_i128_half : forall a, i_checked_div I128_MIN a 2%Z = Some (OM.i128_half a).
Proof. intros a. exact eq_refl. Qed.

(** the model's [median], on a list of even length >= 2, IS the regenerated tail applied to the
    two middle elements of the sorted list ([None] = one of the [expect]s fires) *)
Lemma keq_median_even : forall l lower hi lo,
  Nat.eqb (Nat.modulo (length (OM.sortZ l)) 2) 1 = false ->
  Nat.div (length (OM.sortZ l)) 2 = S lower ->
  nth_error (OM.sortZ l) (S lower) = Some hi ->
  nth_error (OM.sortZ l) lower = Some lo ->
  OM.median l = match KMed.median_tail hi lo with
                | Some m => OM.Ok (Some m)
                | None => OM.Panic
                end.
Proof.
  intros l lower hi lo Heven Hmid Hhi Hlo.
  unfold KMed.median_tail. rewrite !keq_i128_half. cbn [bind]. rewrite keq_i128_checked_add.
  unfold OM.median. cbv zeta. rewrite Heven, Hmid, Hhi, Hlo.
  destruct (OM.i128_checked_add (OM.i128_half hi) (OM.i128_half lo)) as [sum|]; cbn [bind];
    [|reflexivity].
  change (andb (Z.rem hi 2 =? 1)%Z (Z.rem lo 2 =? 1)%Z)
    with (OM.is_odd_pos_rem hi && OM.is_odd_pos_rem lo).
  destruct (OM.is_odd_pos_rem hi && OM.is_odd_pos_rem lo); cbn [bind]; [|reflexivity].
  rewrite (keq_i128_checked_add sum 1). destruct (OM.i128_checked_add sum 1%Z); reflexivity.
Qed.
