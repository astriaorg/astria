(** Hand-written (NOT generated): the fee formula that tools/rs2v.py cuts out of [fee]
    (crates/astria-sequencer/src/checked_actions/utils.rs: the statements
    [let variable_fee = ...] and [let total_fee = ...] -> Kernels/KFee.v) is the fee function of
    Ledger/LedgerModel.v that the C01 theorems use.

    The fragment's free variables are the three accessor calls [fees.base()],
    [fees.multiplier()], [action.variable_component()], read as [u128] values (their declared
    type is an input of the translation, see the table in tools/rs2v.py). *)
From Astria Require Import Base.KernelLib.
From Astria Require Kernels.KFee.
From Astria Require Ledger.LedgerModel.

Module KF := Astria.Kernels.KFee.

Lemma keq_total_fee : forall base mult var,
  KF.total_fee base mult var = Some (LedgerModel.fee_amount base mult var).
Proof. conv. Qed.

(** what the equation buys: below the saturation point the regenerated formula is exactly
    [base + var * mult], and it never panics *)
Lemma kernel_total_fee_exact : forall base mult var, base + var * mult <= U128_MAX ->
  KF.total_fee base mult var = Some (base + var * mult).
Proof.
  intros base mult var H. rewrite keq_total_fee. unfold LedgerModel.fee_amount.
  rewrite saturating_mul_exact by lia. rewrite saturating_add_exact by lia. reflexivity.
Qed.
