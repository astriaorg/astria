(** Hand-written (NOT generated): the conductor's executor/state kernels that tools/rs2v.py
    regenerates from the Rust sources into Kernels/KConductorExec.v (executor/mod.rs:
    [should_execute_firm_block]) and Kernels/KConductorState.v (state.rs: the two height/number
    maps) are equal to the functions of Conductor/ConductorModel.v that the C10 theorems use
    ([should_execute_firm], [map_r2s], [s2r], [next_of]).

    Conventions: a generated kernel returns [option T] ([None] = panic).  A Rust function that
    returns [Result<T, E>] becomes [option (result T)] ([Some RErr] = it returned an error, which
    is not a panic); the model writes those as [option T] with [None] = error, so the lemma is
    [K.f args = Some (res_of_opt (Model.f args))], which also says that the Rust function cannot
    panic.

    [CommitLevel] is regenerated too: its variants are read from config.rs and emitted as an
    Inductive; [mode_of] maps it to the model's [mode]. *)
From Astria Require Import Base.KernelLib.
From Astria Require Kernels.KConductorExec Kernels.KConductorState.
From Astria Require Conductor.ConductorModel Conductor.ConductorArith.

Module KE := Astria.Kernels.KConductorExec.
Module KS := Astria.Kernels.KConductorState.
Module CM := Astria.Conductor.ConductorModel.

(** the regenerated enum and the model's [mode]: a bijection *)
Definition mode_of (l : KE.CommitLevel) : CM.mode :=
  match l with
  | KE.FirmOnly => CM.FirmOnly
  | KE.SoftOnly => CM.SoftOnly
  | KE.SoftAndFirm => CM.SoftAndFirm
  end.
Definition level_of (m : CM.mode) : KE.CommitLevel :=
  match m with
  | CM.FirmOnly => KE.FirmOnly
  | CM.SoftOnly => KE.SoftOnly
  | CM.SoftAndFirm => KE.SoftAndFirm
  end.
Lemma keq_mode_level : forall m, mode_of (level_of m) = m.
Proof. destruct m; reflexivity. Qed.
Lemma keq_level_mode : forall l, level_of (mode_of l) = l.
Proof. destruct l; reflexivity. Qed.

Lemma keq_i64_max : I64_MAX = CM.I64_MAX.
Proof. conv. Qed.

Lemma keq_should_execute_firm_block : forall nf ns l,
  KE.should_execute_firm_block nf ns l = Some (CM.should_execute_firm nf ns (mode_of l)).
Proof.
  intros nf ns l. unfold KE.should_execute_firm_block, CM.should_execute_firm.
  destruct l; cbn [mode_of]; [reflexivity|reflexivity|].
  destruct (nf =? ns); reflexivity.
Qed.

Lemma keq_should_execute_firm_block_mode : forall nf ns m,
  KE.should_execute_firm_block nf ns (level_of m) = Some (CM.should_execute_firm nf ns m).
Proof. intros. rewrite keq_should_execute_firm_block, keq_mode_level. reflexivity. Qed.

Lemma keq_map_rollup_number_to_sequencer_height : forall sstart rstart num,
  KS.map_rollup_number_to_sequencer_height sstart rstart num
  = Some (res_of_opt (CM.map_r2s sstart rstart num)).
Proof.
  intros sstart rstart num.
  unfold KS.map_rollup_number_to_sequencer_height, CM.map_r2s, res_of_opt, try_into_ranged.
  change CM.I64_MAX with I64_MAX.
  destruct (checked_add U64_MAX num 1) as [n1|]; cbn [ok_or]; [|reflexivity].
  destruct (n1 <? rstart); [reflexivity|].
  destruct (checked_add U64_MAX sstart num) as [t|]; cbn [ok_or]; [|reflexivity].
  destruct (checked_sub t rstart) as [h|]; cbn [ok_or]; [|reflexivity].
  destruct (h <=? I64_MAX); reflexivity.
Qed.

Lemma keq_try_map_sequencer_height_to_rollup_height : forall sstart rstart h,
  KS.try_map_sequencer_height_to_rollup_height sstart rstart h
  = Some (res_of_opt (CM.s2r sstart rstart h)).
Proof.
  intros sstart rstart h.
  unfold KS.try_map_sequencer_height_to_rollup_height, CM.s2r, res_of_opt.
  destruct (checked_sub h sstart) as [d|]; cbn [ok_or]; reflexivity.
Qed.

(** [next_expected_{firm,soft}_sequencer_height] = the map, [expect]ed by the caller, then
    [Height::increment]: the model's [next_of] is the regenerated map followed by the
    (hand-transcribed, tendermint) increment; [None] = one of the two panics *)
Lemma keq_next_of : forall sstart rstart num,
  CM.next_of sstart rstart num
  = (do r <- KS.map_rollup_number_to_sequencer_height sstart rstart num;
     do h <- unwrap_res r;
     height_increment h).
Proof.
  intros sstart rstart num. rewrite keq_map_rollup_number_to_sequencer_height.
  unfold CM.next_of. cbn [bind].
  destruct (CM.map_r2s sstart rstart num) as [h|] eqn:E; cbn [res_of_opt ok_or unwrap_res bind];
    [|reflexivity].
  unfold height_increment, checked_add, try_into_ranged.
  change CM.I64_MAX with I64_MAX.
  assert (Hh : h <= I64_MAX) by (apply ConductorArith.map_r2s_Some in E; apply E).
  assert (Hb : h + 1 <=? U64_MAX = true).
  { apply N.leb_le. unfold I64_MAX, U64_MAX in *. lia. }
  rewrite Hb. cbn [bind].
  destruct (N.ltb_spec h I64_MAX), (N.leb_spec (h + 1) I64_MAX); (reflexivity || lia).
Qed.
