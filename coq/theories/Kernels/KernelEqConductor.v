(** Hand-written (NOT generated): the quorum threshold that tools/rs2v.py regenerates from
    crates/astria-conductor/src/celestia/block_verifier.rs into Kernels/KConductor.v is equal to
    [QuorumModel.quorum], the function the C09 theorems are about; when the Rust source changes
    its meaning, [keq_quorum_all] stops compiling.  The equation is against the FIXED function;
    what the pre-fix source computed is [QuorumModel.quorum_prefix].  A generated kernel returns
    [option T] ([None] = panic), so [K.f args = Some (Model.f args)] also says that the Rust
    function cannot panic. *)
From Astria Require Import Base.KernelLib.
From Astria Require Kernels.KConductor.
From Astria Require Quorum.QuorumProofs.

Module KC := Astria.Kernels.KConductor.
Module QM := Astria.Quorum.QuorumModel.
Module QP := Astria.Quorum.QuorumProofs.

Lemma keq_quorum_all : forall c t,
  KC.does_commit_voting_power_have_quorum c t = Some (QM.quorum c t).
Proof. intros c t. exact eq_refl. Qed.

Lemma keq_quorum : forall c t, c <= U64_MAX -> t <= U64_MAX ->
  KC.does_commit_voting_power_have_quorum c t = Some (QM.quorum c t).
Proof. intros c t _ _. apply keq_quorum_all. Qed.

Lemma kernel_quorum_exact : forall c t, c <= U64_MAX -> t <= U64_MAX ->
  KC.does_commit_voting_power_have_quorum c t = Some (2 * t <? 3 * c).
Proof.
  intros c t Hc Ht. rewrite keq_quorum_all. f_equal. apply Bool.eq_true_iff_eq.
  rewrite N.ltb_lt. exact (QP.quorum_exact c t Hc Ht).
Qed.
