(** Hand-written (NOT generated): the block-size accounting that tools/rs2v.py regenerates from
    crates/astria-sequencer/src/proposal/block_size_constraints.rs into Kernels/KProposal.v is
    equal to the "BlockSizeConstraints" part of Proposal/ProposalModel.v that the C06 theorems
    use.

    A method of [BlockSizeConstraints] is regenerated as a function of the FIELDS IT READS
    ([self_<field>] parameters); a [&mut self] method additionally returns the new value of every
    field it assigns (here: exactly one), also when it returns [Err] -- so "an error leaves the
    sizes as they were" is part of the equation.  [Result<(), _>] is [result unit]
    ([Some (RErr, _)] = it returned an error; [None] would be a panic).  The model writes the
    same methods as [constraints -> N -> option constraints] ([None] = error, caller keeps the
    old record). *)
From Astria Require Import Base.KernelLib.
From Astria Require Kernels.KProposal.
From Astria Require Proposal.ProposalModel.

Module KP := Astria.Kernels.KProposal.
Module PM := Astria.Proposal.ProposalModel.

(** Both sides of the four [checked_add] equations branch on the same two comparisons: the sum
    against [usize::MAX], then against the limit. *)
Ltac by_the_two_comparisons :=
  intros c n;
  unfold KP.sequencer_checked_add, KP.cometbft_checked_add,
    PM.seq_checked_add, PM.comet_checked_add;
  change PM.USIZE_MAX with U64_MAX;
  destruct (checked_add U64_MAX _ n) as [v|]; cbn [ok_or bind]; [|reflexivity];
  destruct (v <=? _); reflexivity.

Lemma keq_max_sequence_data_bytes : KP.MAX_SEQUENCE_DATA_BYTES_PER_BLOCK = PM.MAX_SEQ.
Proof. conv. Qed.

Lemma keq_usize_max : U64_MAX = PM.USIZE_MAX.
Proof. conv. Qed.

Lemma keq_sequencer_has_space : forall c n,
  KP.sequencer_has_space (PM.max_seq c) (PM.cur_seq c) n = Some (PM.seq_has_space c n).
Proof. conv. Qed.

Lemma keq_cometbft_has_space : forall c n,
  KP.cometbft_has_space (PM.max_comet c) (PM.cur_comet c) n = Some (PM.comet_has_space c n).
Proof. conv. Qed.

Lemma keq_sequencer_checked_add : forall c n,
  KP.sequencer_checked_add (PM.max_seq c) (PM.cur_seq c) n
  = Some (match PM.seq_checked_add c n with
          | Some c' => (ROk tt, PM.cur_seq c')
          | None => (RErr, PM.cur_seq c)
          end).
Proof. by_the_two_comparisons. Qed.

Lemma keq_cometbft_checked_add : forall c n,
  KP.cometbft_checked_add (PM.max_comet c) (PM.cur_comet c) n
  = Some (match PM.comet_checked_add c n with
          | Some c' => (ROk tt, PM.cur_comet c')
          | None => (RErr, PM.cur_comet c)
          end).
Proof. by_the_two_comparisons. Qed.

(** the other direction: the model's function IS the regenerated one, the fields that the Rust
    method does not assign (they are not even among the values the regenerated function
    returns) carried over unchanged *)
Definition put_cur_seq (c : PM.constraints) (r : result unit * N) : option PM.constraints :=
  match r with
  | (ROk _, v) => Some (PM.mkC (PM.max_seq c) (PM.max_comet c) v (PM.cur_comet c))
  | (RErr, _) => None
  end.
Definition put_cur_comet (c : PM.constraints) (r : result unit * N) : option PM.constraints :=
  match r with
  | (ROk _, v) => Some (PM.mkC (PM.max_seq c) (PM.max_comet c) (PM.cur_seq c) v)
  | (RErr, _) => None
  end.

Lemma keq_seq_checked_add_model : forall c n,
  PM.seq_checked_add c n
  = bind (KP.sequencer_checked_add (PM.max_seq c) (PM.cur_seq c) n) (put_cur_seq c).
Proof. by_the_two_comparisons. Qed.

Lemma keq_comet_checked_add_model : forall c n,
  PM.comet_checked_add c n
  = bind (KP.cometbft_checked_add (PM.max_comet c) (PM.cur_comet c) n) (put_cur_comet c).
Proof. by_the_two_comparisons. Qed.
