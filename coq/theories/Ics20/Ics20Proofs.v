(** C18: each callback inverted once; what it takes out of a channel's escrow gives the escrow
    identity for one step, which is summed over a history. *)
From Astria Require Import Ics20.Ics20Model Ics20.Ics20Spec.

Lemma seg_eqb_eq x y : seg_eqb x y = true <-> x = y.
Proof.
  destruct x as [a b], y as [c d]. unfold seg_eqb; cbn.
  rewrite andb_true_iff, !N.eqb_eq. split.
  - intros [-> ->]; reflexivity.
  - intros H; inversion H; auto.
Qed.

Lemma trace_eqb_eq x : forall y, trace_eqb x y = true <-> x = y.
Proof.
  induction x as [|a x IH]; intros [|b y]; cbn; try (split; [discriminate|discriminate]).
  - split; reflexivity.
  - rewrite andb_true_iff, seg_eqb_eq, IH. split.
    + intros [-> ->]; reflexivity.
    + intros H; inversion H; auto.
Qed.

Lemma denom_eqb_eq x y : denom_eqb x y = true <-> x = y.
Proof.
  destruct x as [t b], y as [t' b']. unfold denom_eqb; cbn.
  rewrite andb_true_iff, trace_eqb_eq, N.eqb_eq. split.
  - intros [-> ->]; reflexivity.
  - intros H; inversion H; auto.
Qed.

Lemma denom_eqb_refl x : denom_eqb x x = true.
Proof. apply denom_eqb_eq; reflexivity. Qed.

Lemma denom_eqb_neq x y : denom_eqb x y = false <-> x <> y.
Proof.
  split.
  - intros H E. apply denom_eqb_eq in E. congruence.
  - intros H. destruct (denom_eqb x y) eqn:E; [|reflexivity]. apply denom_eqb_eq in E. contradiction.
Qed.

Lemma upd_esc_same f c d v : upd_esc f c d v c d = v.
Proof. unfold upd_esc. rewrite N.eqb_refl, denom_eqb_refl. reflexivity. Qed.

Lemma upd_bal_same f a d v : upd_bal f a d v a d = v.
Proof. unfold upd_bal. rewrite N.eqb_refl, denom_eqb_refl. reflexivity. Qed.

Lemma key_eq_true (c c' : N) (d d' : denom) :
  (c' =? c) && denom_eqb d' d = true -> c' = c /\ d' = d.
Proof. rewrite andb_true_iff, N.eqb_eq, denom_eqb_eq. tauto. Qed.

(** Taking [amt] out of, or adding it to, one escrow balance, read at any key. *)
Lemma upd_esc_sub f c0 d0 amt c a :
  amt <= f c0 d0 ->
  upd_esc f c0 d0 (f c0 d0 - amt) c a + (if (c =? c0) && denom_eqb a d0 then amt else 0) = f c a.
Proof.
  intros Hle. unfold upd_esc. destruct ((c =? c0) && denom_eqb a d0) eqn:KE; [|lia].
  apply key_eq_true in KE. destruct KE as [-> ->]. lia.
Qed.

Lemma upd_esc_add f c0 d0 amt c a :
  upd_esc f c0 d0 (f c0 d0 + amt) c a = f c a + (if (c =? c0) && denom_eqb a d0 then amt else 0).
Proof.
  unfold upd_esc. destruct ((c =? c0) && denom_eqb a d0) eqn:KE; [|lia].
  apply key_eq_true in KE. destruct KE as [-> ->]. reflexivity.
Qed.

Lemma emit_deposit_inv s b dest asset amt s1 :
  emit_deposit s b dest asset amt = Some s1 ->
  exists br, find_bridge s b = Some br /\ br_asset br = asset /\
    s1 = add_deposit s {| dp_bridge := b; dp_rollup := br_rollup br; dp_amount := amt;
                          dp_asset := asset; dp_dest := dest |}.
Proof.
  unfold emit_deposit. destruct (find_bridge s b) as [br|]; [|discriminate].
  destruct (denom_eqb (br_asset br) asset) eqn:E; [|discriminate].
  intros H; inversion H; subst. exists br. apply denom_eqb_eq in E. auto.
Qed.

Lemma bridge_step_inv s rcpt asset amt m s1 :
  bridge_step s rcpt asset amt m = Some s1 ->
  bal s1 = bal s /\ esc s1 = esc s /\
  if is_bridge s rcpt
  then exists dpo, s1 = add_deposit s dpo /\ dp_amount dpo = amt /\ dp_asset dpo = asset /\
                   dp_bridge dpo = rcpt
  else s1 = s.
Proof.
  unfold bridge_step, is_bridge. destruct (find_bridge s rcpt) as [br|] eqn:F.
  - destruct (br_disabled br); [discriminate|].
    destruct m as [|dest len]; [discriminate|].
    destruct (len =? 0); [discriminate|].
    destruct (MAX_ROLLUP_ADDRESS_BYTE_LENGTH <? len); [discriminate|].
    intros H. apply emit_deposit_inv in H. destruct H as (br' & _ & _ & ->).
    split; [reflexivity|]. split; [reflexivity|]. eexists; split; [reflexivity|]. cbn. auto.
  - intros [= <-]. auto.
Qed.

Lemma dec_escrow_inv s c d amt s1 :
  dec_escrow s c d amt = Some s1 ->
  amt <= esc s c d /\ s1 = set_esc s (upd_esc (esc s) c d (esc s c d - amt)).
Proof.
  unfold dec_escrow. destruct (checked_sub (esc s c d) amt) as [v|] eqn:E; [|discriminate].
  apply checked_sub_Some in E. destruct E as [-> Hle]. intros H; inversion H; subst. auto.
Qed.

Lemma dec_escrow_none s c d amt : dec_escrow s c d amt = None -> esc s c d < amt.
Proof.
  unfold dec_escrow, checked_sub. destruct (N.leb_spec amt (esc s c d)); [discriminate|auto].
Qed.

Lemma credit_inv s a d amt s1 :
  credit s a d amt = Some s1 ->
  bal s a d + amt <= U128_MAX /\ s1 = set_bal s (upd_bal (bal s) a d (bal s a d + amt)).
Proof.
  unfold credit. destruct (checked_add U128_MAX (bal s a d) amt) as [v|] eqn:E; [|discriminate].
  apply checked_add_Some in E. destruct E as [-> Hle]. intros H; inversion H; subst. auto.
Qed.

Lemma register_frame s d :
  bal (register s d) = bal s /\ esc (register s d) = esc s /\
  deposits (register s d) = deposits s /\ events (register s d) = events s.
Proof. unfold register. destruct (mem_denom d (regd s)); cbn; auto. Qed.

(** [receive_tokens] got as far as the escrow step and passed it. *)
Definition past_escrow (r : tres) : bool :=
  match r with TOk | TErr SCredit => true | TErr _ => false end.

(** What [receive_tokens] leaves behind, by how it ended: nothing written before the bridge step
    has been passed; after it, the escrow taken if the escrow step has been passed, the credit
    made on success; without a bridge recipient no deposit or event is recorded. *)
Lemma receive_inv s p s' r :
  receive_tokens s p = (s', r) ->
  match r with
  | TErr SParse | TErr SAsset | TErr SBridge => s' = s
  | _ =>
    exists amt rcpt d,
      parse_amount (p_amount p) = Some amt /\ p_receiver p = Some rcpt /\
      resolve s (p_denom p) = Some d /\
      let '(is_src, asset) := recv_asset p d in
      let took := past_escrow r && is_src in
      (took = true -> amt <= esc s (p_dchan p) asset) /\
      esc s' = (if took then upd_esc (esc s) (p_dchan p) asset (esc s (p_dchan p) asset - amt)
                else esc s) /\
      bal s' = match r with
               | TOk => upd_bal (bal s) rcpt asset (bal s rcpt asset + amt)
               | TErr _ => bal s
               end /\
      (is_bridge s rcpt = false -> deposits s' = deposits s /\ events s' = events s)
  end.
Proof.
  unfold receive_tokens.
  destruct (p_ok p); cbn [negb]; [|intros [= <- <-]; reflexivity].
  destruct (parse_amount (p_amount p)) as [amt|]; [|intros [= <- <-]; reflexivity].
  destruct (p_receiver p) as [rcpt|]; [|intros [= <- <-]; reflexivity].
  destruct (resolve s (p_denom p)) as [d|]; [|intros [= <- <-]; reflexivity].
  destruct (recv_asset p d) as [is_src asset] eqn:RA.
  destruct (blackburn s && negb (mem_denom asset (feeassets s))); [intros [= <- <-]; reflexivity|].
  destruct (bridge_step s rcpt asset amt (p_memo_dep p)) as [s1|] eqn:B;
    [|intros [= <- <-]; reflexivity].
  apply bridge_step_inv in B. destruct B as (Fb & Fe & B).
  assert (Fd : is_bridge s rcpt = false -> deposits s1 = deposits s /\ events s1 = events s).
  { intros NB. rewrite NB in B. subst s1. auto. }
  destruct (if is_src then _ else _) as [s2|] eqn:D.
  2:{ intros [= <- <-]. exists amt, rcpt, d. rewrite RA. cbn. repeat split; auto; try apply Fd; auto.
      discriminate. }
  assert (F2 : (is_src = true -> amt <= esc s (p_dchan p) asset) /\
               esc s2 = (if is_src
                         then upd_esc (esc s) (p_dchan p) asset (esc s (p_dchan p) asset - amt)
                         else esc s) /\
               bal s2 = bal s /\ deposits s2 = deposits s1 /\ events s2 = events s1).
  { destruct is_src.
    - apply dec_escrow_inv in D. destruct D as [Hle ->]. rewrite Fe in Hle. cbn. rewrite Fe. auto.
    - injection D as <-. destruct (register_frame s1 asset) as (-> & -> & -> & ->).
      repeat split; auto. discriminate. }
  destruct F2 as (Hle & Ee & Eb & Ed & Ev).
  destruct (credit s2 rcpt asset amt) as [s3|] eqn:C; intros [= <- <-]; exists amt, rcpt, d;
    rewrite RA; [apply credit_inv in C; destruct C as [_ ->]|]; cbn; rewrite ?Eb, ?Ed, ?Ev; auto 7.
Qed.

Lemma obs_eq_refl s : obs_eq s s.
Proof. unfold obs_eq; auto. Qed.

Lemma failed_receive_no_effect s p s' st :
  receive_tokens s p = (s', TErr st) -> f5_partial s p = false -> obs_eq s s'.
Proof.
  intros H K. unfold f5_partial in K. rewrite H in K. cbn [snd] in K.
  apply receive_inv in H.
  destruct st; try (subst s'; apply obs_eq_refl);
    destruct H as (amt & rcpt & d & _ & PR & RS & H);
    unfold recv_to_bridge, recv_is_source in K; rewrite PR, ?RS in K;
    unfold recv_asset in H; cbn [past_escrow andb] in H.
  - (* insufficient escrow *)
    destruct H as (_ & Ee & Eb & Ed). destruct (Ed K) as [Dd Ev].
    unfold obs_eq. rewrite Ee, Eb. auto.
  - (* overflowing credit *)
    apply orb_false_iff in K. destruct K as [K1 K2]. rewrite K2 in H.
    destruct H as (_ & Ee & Eb & Ed). destruct (Ed K1) as [Dd Ev].
    unfold obs_eq. rewrite Ee, Eb. auto.
Qed.

(** What an executed timeout or error acknowledgement leaves behind. *)
Lemma refund_execute_inv s p s' x :
  refund_execute s p = (s', x) ->
  match x with
  | OutOk =>
    exists amt rcv d,
      parse_amount (p_amount p) = Some amt /\ p_sender p = Some rcv /\
      resolve s (p_denom p) = Some d /\
      (refund_is_source p d = true -> amt <= esc s (p_schan p) d) /\
      esc s' = (if refund_is_source p d
                then upd_esc (esc s) (p_schan p) d (esc s (p_schan p) d - amt) else esc s) /\
      bal s' = upd_bal (bal s) rcv d (bal s rcv d + amt)
  | _ => s' = s
  end.
Proof.
  unfold refund_execute. destruct (negb (refund_check s p)); [intros [= <- <-]; reflexivity|].
  destruct (refund_tokens s p) as [s3 [|st]] eqn:R; intros [= <- <-]; [|reflexivity].
  revert R. unfold refund_tokens.
  destruct (p_ok p); cbn [negb]; [|discriminate].
  destruct (parse_amount (p_amount p)) as [amt|]; [|discriminate].
  destruct (p_sender p) as [rcv|]; [|discriminate].
  destruct (resolve s (p_denom p)) as [d|]; [|discriminate].
  match goal with |- context [match ?x with Some s1 => _ | None => (s, TErr SBridge) end] =>
    destruct x as [s1|] eqn:M end; [|discriminate].
  assert (F : bal s1 = bal s /\ esc s1 = esc s).
  { destruct (p_memo_wfr p) as [|dest len].
    - injection M as <-; auto.
    - apply emit_deposit_inv in M. destruct M as (br & _ & _ & ->). cbn; auto. }
  destruct F as [Fb Fe].
  destruct (if refund_is_source p d then _ else _) as [s2|] eqn:D; [|discriminate].
  destruct (credit s2 rcv d amt) as [s3'|] eqn:C; [|discriminate].
  intros [= <-]. exists amt, rcv, d. apply credit_inv in C. destruct C as [_ ->]. cbn [esc bal set_bal].
  destruct (refund_is_source p d).
  - apply dec_escrow_inv in D. destruct D as [Hle ->]. rewrite Fe in Hle. cbn. rewrite Fb, Fe. auto 7.
  - injection D as <-. rewrite Fb, Fe. repeat split; auto. discriminate.
Qed.

Lemma withdraw_ok_inv s w s' :
  withdraw s w = (s', true) ->
  exists d,
    pd_under (w_denom w) = Some d /\ w_amount w <> 0 /\
    let from := match w_bridge w with Some b => b | None => w_signer w end in
    w_amount w <= bal s from d /\
    bal s' = upd_bal (bal s) from d (bal s from d - w_amount w) /\
    (wd_is_source w = true -> esc s (w_chan w) d + w_amount w <= U128_MAX) /\
    esc s' = (if wd_is_source w
              then upd_esc (esc s) (w_chan w) d (esc s (w_chan w) d + w_amount w) else esc s) /\
    deposits s' = deposits s /\ events s' = events s.
Proof.
  unfold withdraw.
  destruct (pd_under (w_denom w)) as [d|]; [|discriminate].
  destruct (w_amount w =? 0) eqn:Z; [discriminate|]. apply N.eqb_neq in Z.
  destruct (U128_MAX <? w_amount w); [discriminate|].
  match goal with |- (if negb ?b then _ else _) = _ -> _ => destruct b end; cbn [negb]; [|discriminate].
  destruct (negb (memN (w_chan w) (chans s))); [discriminate|].
  set (from := match w_bridge w with Some b => b | None => w_signer w end).
  destruct (checked_sub (bal s from d) (w_amount w)) as [nb|] eqn:CS; [|discriminate].
  apply checked_sub_Some in CS. destruct CS as [-> Hle].
  set (s1 := match w_bridge w with Some b => set_wevents s ((b, w_evid w) :: wevents s) | None => s end).
  assert (F1 : bal s1 = bal s /\ esc s1 = esc s /\ deposits s1 = deposits s /\ events s1 = events s).
  { unfold s1. destruct (w_bridge w); cbn; auto. }
  destruct F1 as (Fb & Fe & Fd & Fv).
  destruct (wd_is_source w).
  - cbn [set_bal esc]. rewrite Fe.
    destruct (checked_add U128_MAX (esc s (w_chan w) d) (w_amount w)) as [ne|] eqn:CA; [|discriminate].
    apply checked_add_Some in CA. destruct CA as [-> Hle2].
    intros [= <-]. exists d. cbn. rewrite Fb, Fd, Fv. auto 9.
  - intros [= <-]. exists d. cbn. rewrite Fb, Fe, Fd, Fv. repeat split; auto. discriminate.
Qed.

(** Every exit of [withdraw] with [false] returns the state it was given: walk its branches. *)
Lemma withdraw_false s w s' : withdraw s w = (s', false) -> s' = s.
Proof.
  unfold withdraw.
  repeat match goal with |- match ?x with _ => _ end = _ -> _ => destruct x end;
    intros [= <-]; reflexivity.
Qed.

Lemma recv_execute_inv s q p s' x :
  recv_execute s q p = (s', x) ->
  (x = OutFail /\ s' = s) \/
  exists s1 r, receive_tokens s p = (s1, r) /\
    s' = set_acked s1 ((p_dchan p, q) :: acked s1) /\
    x = OutAck (match r with TOk => true | TErr _ => false end).
Proof.
  unfold recv_execute. destruct (receive_tokens s p) as [s1 r].
  destruct (_ && _); intros [= <- <-]; [right; exists s1, r|left]; auto.
Qed.

(* [TErr SCredit] too: the escrow step has been passed when the credit fails *)
Lemma receive_escrow s p s1 r q c a :
  receive_tokens s p = (s1, r) ->
  esc s1 c a + match r with
               | TOk | TErr SCredit => returned_of s (ORecv true q p) (OutAck true) c a
               | TErr _ => 0
               end = esc s c a.
Proof.
  intros R. apply receive_inv in R.
  destruct r as [|[]]; try (subst s1; lia);
    destruct R as (amt & rcpt & d & PA & _ & RS & Hle & -> & _); cbn [past_escrow andb] in *; try lia.
  all: cbn [returned_of]; rewrite RS; unfold amount_of; rewrite PA.
  all: destruct (has_prefix d (p_sport p) (p_schan p)); cbn [andb]; [apply upd_esc_sub; auto|lia].
Qed.

Lemma refund_escrow s p s' x c a :
  refund_execute s p = (s', x) ->
  esc s' c a + match x with OutOk => refund_amount s p c a | _ => 0 end = esc s c a.
Proof.
  intros H. apply refund_execute_inv in H. destruct x; try (subst s'; lia).
  destruct H as (amt & rcv & d & PA & _ & RS & Hle & -> & _).
  unfold refund_amount, amount_of. rewrite RS, PA.
  destruct (refund_is_source p d); cbn [andb]; [apply upd_esc_sub; auto|lia].
Qed.

(** At the level of a step: an error acknowledgement, outside F5, changes nothing the property
    names. *)
Lemma failed_receive_step_no_effect s q p s' :
  step s (ORecv true q p) = (s', OutAck false) -> f5_partial s p = false -> obs_eq s s'.
Proof.
  cbn [step]. intros H K. apply recv_execute_inv in H.
  destruct H as [[H _]|(s1 & r & R & -> & H)]; [discriminate H|].
  destruct r as [|st]; [discriminate H|].
  pose proof (failed_receive_no_effect _ _ _ _ R K) as O. unfold obs_eq in *; cbn; exact O.
Qed.

Lemma step_same_or_done s o s' x :
  step s o = (s', x) ->
  s' = s \/ match x with OutWd true | OutAck _ | OutOk | OutSet => True | _ => False end.
Proof.
  destruct o as [w|[|] q p|[| |] p|p|a b]; cbn [step]; intros H.
  - (* withdrawal *)
    destruct (withdraw s w) as [s1 [|]] eqn:W; injection H as <- <-;
      [right; exact I|left; exact (withdraw_false _ _ _ W)].
  - (* packet received *)
    apply recv_execute_inv in H.
    destruct H as [[_ ->]|(s1 & r & _ & _ & ->)]; [left; reflexivity|right; exact I].
  - (* packet refused *) injection H as <- _. left; reflexivity.
  - (* acknowledgement: success *) injection H as <- _. left; reflexivity.
  - (* acknowledgement: error *)
    apply refund_execute_inv in H. destruct x; try (left; exact H); right; exact I.
  - (* acknowledgement: unreadable *) injection H as <- _. left; reflexivity.
  - (* timeout *)
    apply refund_execute_inv in H. destruct x; try (left; exact H); right; exact I.
  - (* set disabled *) injection H as _ <-. right; exact I.
Qed.

(** A callback that fails, and a rejected packet, leave the whole state as it was
    (transaction-level rollback; true of the model by construction). *)
Lemma failed_callback_no_effect s o s' :
  (step s o = (s', OutFail) \/ step s o = (s', OutRejected) \/ step s o = (s', OutWd false)) ->
  s' = s.
Proof.
  intros [H|[H|H]]; destruct (step_same_or_done _ _ _ _ H) as [E|[]]; exact E.
Qed.

(** Outside F8 a withdrawal escrows exactly the assets that are sequencer-origin on its
    channel. *)
Lemma wd_source_origin w d :
  pd_under (w_denom w) = Some d -> f8_withdrawal w = false ->
  wd_is_source w = origin (w_chan w) d.
Proof.
  unfold wd_is_source, f8_withdrawal.
  destruct (w_denom w); cbn; intros [= ->]; [reflexivity|intros ->; reflexivity].
Qed.

Lemma step_identity s o s' x c a :
  step s o = (s', x) -> origin c a = true -> known_for_identity s o = false ->
  esc s' c a + returned_of s o x c a + refunded_of s o x c a = esc s c a + sent_of o x c a.
Proof.
  intros H OR K. destruct o as [w|ck q p|k p|p|ad b]; cbn [step] in H.
  - (* withdrawal *)
    destruct (withdraw s w) as [s1 ok] eqn:W. injection H as <- <-.
    cbn [returned_of refunded_of]. rewrite !N.add_0_r.
    destruct ok; [|rewrite (withdraw_false _ _ _ W); cbn; lia].
    apply withdraw_ok_inv in W. destruct W as (d & PU & _ & _ & _ & _ & -> & _).
    cbn [sent_of]. rewrite PU, (wd_source_origin w d PU K).
    destruct (origin (w_chan w) d) eqn:O; [apply upd_esc_add|].
    (* not escrowed: then [(c, a)], sequencer-origin, is another key *)
    destruct ((c =? w_chan w) && denom_eqb a d) eqn:KE; [|lia].
    apply key_eq_true in KE. destruct KE as [-> ->]. congruence.
  - (* incoming packet *)
    cbn [refunded_of sent_of]. rewrite !N.add_0_r.
    destruct ck; [|inversion H; subst; cbn; lia].
    apply recv_execute_inv in H.
    destruct H as [[-> ->]|(s1 & r & R & -> & ->)]; [cbn; lia|]. cbn [esc set_acked].
    cbn [known_for_identity] in K. unfold f5_escrow_leak in K. rewrite R in K. cbn [snd] in K.
    pose proof (receive_escrow _ _ _ _ q c a R) as E.
    destruct r as [|[]]; try exact E; cbn [returned_of] in *; try lia.
    (* credit overflow: outside the recorded input the sequencer is not the source *)
    unfold recv_is_source in K. destruct (resolve s (p_denom p)); [|lia].
    rewrite K in E. cbn [andb] in E. lia.
  - (* acknowledgement *)
    cbn [returned_of sent_of]. rewrite !N.add_0_r.
    destruct k; try (inversion H; subst; cbn; lia).
    exact (refund_escrow _ _ _ _ c a H).
  - (* timeout *)
    cbn [returned_of sent_of]. rewrite !N.add_0_r. exact (refund_escrow _ _ _ _ c a H).
  - inversion H; subst. cbn. lia.
Qed.

Theorem escrow_identity ops : forall s c a,
  origin c a = true -> clean s ops = true ->
  esc (fst (run s ops)) c a + returned_sum s ops c a + refunded_sum s ops c a
  = esc s c a + sent_sum s ops c a.
Proof.
  induction ops as [|o r IH]; intros s c a OR CL.
  - cbn. lia.
  - cbn [clean] in CL. apply andb_true_iff in CL. destruct CL as [K CL].
    apply negb_true_iff in K.
    cbn [run returned_sum refunded_sum sent_sum].
    destruct (step s o) as [s1 x] eqn:ST. cbn [fst] in CL.
    pose proof (step_identity _ _ _ _ c a ST OR K) as S1.
    pose proof (IH s1 c a OR CL) as S2.
    destruct (run s1 r) as [s2 xs]. cbn [fst] in *. lia.
Qed.

(** What has been returned or refunded over a channel never exceeds what was there plus what
    was sent out. *)
Corollary total_release_bounded ops s c a :
  origin c a = true -> clean s ops = true ->
  returned_sum s ops c a + refunded_sum s ops c a <= esc s c a + sent_sum s ops c a.
Proof. intros OR CL. pose proof (escrow_identity ops s c a OR CL). lia. Qed.

(** For every incoming step (whatever its outcome): no escrow balance grows; and whenever an
    escrow balance shrinks, it shrinks by at most what it held (it cannot go negative), which
    for successful steps is exactly the amount credited — see [release_exact_recv] and
    [release_exact_refund]. *)
Lemma incoming_escrow_monotone s o s' x :
  step s o = (s', x) -> incoming o = true -> forall c a, esc s' c a <= esc s c a.
Proof.
  intros H I c a. destruct o as [w|ck q p|k p|p|ad b]; cbn in I; try discriminate; cbn [step] in H.
  - destruct ck; [|inversion H; subst; lia].
    apply recv_execute_inv in H.
    destruct H as [[_ ->]|(s1 & r & R & -> & _)]; [lia|]. cbn [esc set_acked].
    pose proof (receive_escrow _ _ _ _ q c a R). lia.
  - destruct k; try (inversion H; subst; lia).
    pose proof (refund_escrow _ _ _ _ c a H). lia.
  - pose proof (refund_escrow _ _ _ _ c a H). lia.
Qed.

(** A successfully received source-zone asset: the amount credited was in the channel's escrow
    before, leaves it, and reaches the recipient — nothing more. *)
Lemma release_exact_recv s q p s' :
  step s (ORecv true q p) = (s', OutAck true) ->
  forall d, resolve s (p_denom p) = Some d -> has_prefix d (p_sport p) (p_schan p) = true ->
  exists rcpt, p_receiver p = Some rcpt /\
    amount_of p <= esc s (p_dchan p) (pop d) /\
    esc s' (p_dchan p) (pop d) = esc s (p_dchan p) (pop d) - amount_of p /\
    bal s' rcpt (pop d) = bal s rcpt (pop d) + amount_of p.
Proof.
  cbn [step]. intros H d RS HP. apply recv_execute_inv in H.
  destruct H as [[H _]|(s1 & r & R & -> & H)]; [discriminate H|].
  destruct r; [|discriminate H]. clear H.
  apply receive_inv in R. destruct R as (amt & rcpt & d' & PA & PR & RS' & R).
  rewrite RS in RS'. injection RS' as <-.
  unfold recv_asset in R. rewrite HP in R. cbn [past_escrow andb] in R. destruct R as (Hle & Ee & Eb & _).
  exists rcpt. unfold amount_of. rewrite PA. cbn [esc bal set_acked].
  rewrite Ee, Eb, upd_esc_same, upd_bal_same. auto.
Qed.

Lemma release_exact_refund s p s' :
  refund_execute s p = (s', OutOk) ->
  forall d, resolve s (p_denom p) = Some d -> refund_is_source p d = true ->
  exists rcv, p_sender p = Some rcv /\
    amount_of p <= esc s (p_schan p) d /\
    esc s' (p_schan p) d = esc s (p_schan p) d - amount_of p /\
    bal s' rcv d = bal s rcv d + amount_of p.
Proof.
  intros H d RS SRC. apply refund_execute_inv in H.
  destruct H as (amt & rcv & d' & PA & PS & RS' & Hle & Ee & Eb).
  rewrite RS in RS'. injection RS' as <-. rewrite SRC in Hle, Ee.
  exists rcv. unfold amount_of. rewrite PA, Ee, Eb, upd_esc_same, upd_bal_same. auto.
Qed.

Lemma withdraw_trace_form_escrows s w s' d :
  withdraw s w = (s', true) -> w_denom w = PTrace d -> origin (w_chan w) d = true ->
  esc s' (w_chan w) d = esc s (w_chan w) d + w_amount w.
Proof.
  intros W WD OR. apply withdraw_ok_inv in W. destruct W as (d' & PU & _ & _ & _ & _ & -> & _).
  rewrite WD in PU. injection PU as <-.
  unfold wd_is_source. rewrite WD. unfold origin in OR. rewrite OR. apply upd_esc_same.
Qed.

Lemma withdraw_ibc_form_burns s w s' d :
  withdraw s w = (s', true) -> w_denom w = PIbc d ->
  forall c a, esc s' c a = esc s c a.
Proof.
  intros W WD c a. apply withdraw_ok_inv in W. destruct W as (d' & _ & _ & _ & _ & _ & -> & _).
  unfold wd_is_source. rewrite WD. reflexivity.
Qed.
