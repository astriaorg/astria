(** C18 — concrete witnesses (refutations of the full-strength statements: F5, F8) and
    non-vacuity examples.  Everything here is decided by [vm_compute]. *)
From Astria Require Import Ics20.Ics20Model Ics20.Ics20Spec Ics20.Ics20Proofs.

Definition NRIA : denom := ([], 1).
Definition NRIA_BACK : denom := ([(TRANSFER, 7)], 1).   (* transfer/channel-7/nria *)
Definition UATOM : denom := ([], 2).

Definition mk_packet (dn : pdenom) (amt : N) (rcv snd : option addr) (mdep mwfr : memo)
    (sp : port) (sc : chan) (dp : port) (dc : chan) : packet :=
  {| p_ok := true; p_denom := dn; p_amount := Some amt; p_receiver := rcv; p_sender := snd;
     p_memo_dep := mdep; p_memo_wfr := mwfr; p_sport := sp; p_schan := sc; p_dport := dp;
     p_dchan := dc |}.

Definition mk_wd (signer : addr) (c : chan) (dn : pdenom) (amt : N) : withdrawal :=
  {| w_signer := signer; w_chan := c; w_denom := dn; w_amount := amt; w_ret := signer;
     w_bridge := None; w_evid := 0; w_evid_len := 0; w_blk := 0; w_rret := 0; w_rret_len := 0;
     w_memo_wfr := MNone |}.

(** Post-Blackburn chain, channel-0 open, nria registered and an allowed fee asset. *)
Definition base : state := put_chan (put_feeasset (put_reg (init_state true) NRIA) NRIA) 0.

(** Account 3 is a bridge account for rollup 5 holding nria. *)
Definition with_bridge (s : state) : state :=
  put_bridge s 3 {| br_rollup := 5; br_asset := NRIA; br_withdrawer := 4; br_disabled := false |}.

(** nria coming back over channel-0 from counterparty channel-7. *)
Definition back (amt : N) (rcv : addr) (m : memo) : packet :=
  mk_packet (PTrace NRIA_BACK) amt (Some rcv) None m MNone TRANSFER 7 TRANSFER 0.

(** * F5: a failed receive with side effects *)

(** F5a: bridge recipient, 5 escrowed, 10 incoming: the deposit is cached and its event
    recorded, then the escrow check fails. *)
Definition f5a_state : state := put_esc (with_bridge base) 0 NRIA 5.
Definition f5a_packet : packet := back 10 3 (MAddr 9 4).

Lemma f5a_witness :
  snd (receive_tokens f5a_state f5a_packet) = TErr SEscrow /\
  deposits (fst (receive_tokens f5a_state f5a_packet)) =
    [{| dp_bridge := 3; dp_rollup := 5; dp_amount := 10; dp_asset := NRIA; dp_dest := 9 |}] /\
  events (fst (receive_tokens f5a_state f5a_packet)) =
    [{| dp_bridge := 3; dp_rollup := 5; dp_amount := 10; dp_asset := NRIA; dp_dest := 9 |}] /\
  deposits f5a_state = [] /\
  f5_partial f5a_state f5a_packet = true.
Proof. vm_compute. repeat split; reflexivity. Qed.

(** F5b: plain recipient holding u128::MAX: the escrow is decreased, then the credit overflows. *)
Definition f5b_state : state := put_bal (put_esc base 0 NRIA 10) 1 NRIA U128_MAX.
Definition f5b_packet : packet := back 10 1 MNone.

Lemma f5b_witness :
  snd (receive_tokens f5b_state f5b_packet) = TErr SCredit /\
  esc (fst (receive_tokens f5b_state f5b_packet)) 0 NRIA = 0 /\
  esc f5b_state 0 NRIA = 10 /\
  bal (fst (receive_tokens f5b_state f5b_packet)) 1 NRIA = U128_MAX /\
  f5_partial f5b_state f5b_packet = true /\ f5_escrow_leak f5b_state f5b_packet = true.
Proof. vm_compute. repeat split; reflexivity. Qed.

Lemma pair_of {A B} (x : A * B) b : snd x = b -> x = (fst x, b).
Proof. destruct x; cbn; intros ->; reflexivity. Qed.

Lemma failed_receive_no_effect_refuted :
  exists s p s' st, receive_tokens s p = (s', TErr st) /\ ~ obs_eq s s'.
Proof.
  exists f5a_state, f5a_packet, (fst (receive_tokens f5a_state f5a_packet)), SEscrow. split.
  - apply pair_of. vm_compute. reflexivity.
  - intros (_ & _ & D & _). vm_compute in D. discriminate.
Qed.

Lemma failed_receive_escrow_leak_refuted :
  exists s p s' st, receive_tokens s p = (s', TErr st) /\ esc s' 0 NRIA <> esc s 0 NRIA.
Proof.
  exists f5b_state, f5b_packet, (fst (receive_tokens f5b_state f5b_packet)), SCredit. split.
  - apply pair_of. vm_compute. reflexivity.
  - vm_compute. discriminate.
Qed.

(** The error acknowledgement really is written for these inputs (the step keeps the writes). *)
Lemma f5_step_witness :
  snd (step f5a_state (ORecv true 1 f5a_packet)) = OutAck false /\
  deposits (fst (step f5a_state (ORecv true 1 f5a_packet))) <> deposits f5a_state /\
  snd (step f5b_state (ORecv true 1 f5b_packet)) = OutAck false /\
  esc (fst (step f5b_state (ORecv true 1 f5b_packet))) 0 NRIA = 0.
Proof. vm_compute. repeat split; try reflexivity; discriminate. Qed.

(** * F8: a sequencer-origin asset withdrawn under its ibc/<hash> name is burned *)

Definition f8_state : state := put_bal (put_bal base 1 NRIA 10) 2 NRIA 10.
Definition f8_wd : withdrawal := mk_wd 2 0 (PIbc NRIA) 10.
Definition plain_wd : withdrawal := mk_wd 1 0 (PTrace NRIA) 10.

Lemma f8_witness :
  snd (step f8_state (OWd f8_wd)) = OutWd true /\
  bal (fst (step f8_state (OWd f8_wd))) 2 NRIA = 0 /\
  esc (fst (step f8_state (OWd f8_wd))) 0 NRIA = 0 /\
  origin 0 NRIA = true /\ f8_withdrawal f8_wd = true.
Proof. vm_compute. repeat split; reflexivity. Qed.

(** The identity fails for a history that contains no F5 input at all. *)
Lemma escrow_identity_refuted :
  exists s ops c a, origin c a = true /\
    esc (fst (run s ops)) c a + returned_sum s ops c a + refunded_sum s ops c a
    <> esc s c a + sent_sum s ops c a.
Proof.
  exists f8_state, [OWd f8_wd], 0, NRIA. split; [reflexivity|]. vm_compute. discriminate.
Qed.

(** Consequence: account 1 escrows 10 properly, account 2 burns 10 under the ibc/ name; 2's
    packet times out first and is refunded out of 1's escrow; 1's refund is then refused for
    ever (insufficient escrow) — 1 has lost its tokens. *)
Definition f8_history : list op :=
  [OWd plain_wd; OWd f8_wd; OTimeout (sent_packet f8_wd); OTimeout (sent_packet plain_wd)].

Lemma f8_refund_drains_foreign_escrow :
  snd (run f8_state f8_history) = [OutWd true; OutWd true; OutOk; OutRejected] /\
  bal (fst (run f8_state f8_history)) 1 NRIA = 0 /\
  bal (fst (run f8_state f8_history)) 2 NRIA = 10 /\
  esc (fst (run f8_state f8_history)) 0 NRIA = 0.
Proof. vm_compute. repeat split; reflexivity. Qed.

(** A clean history: withdrawals of 30 and 4, a return of 3, the timeout refunding the 4, a return
    too large for the escrow, a sink-zone receive, an error acknowledgement for the 30 (refused). *)
Definition nv_state : state := put_bal (put_bal base 1 NRIA 100) 2 NRIA 50.
Definition nv_history : list op :=
  [OWd (mk_wd 1 0 (PTrace NRIA) 30);
   OWd (mk_wd 2 0 (PTrace NRIA) 4);
   ORecv true 1 (back 3 2 MNone);
   OTimeout (sent_packet (mk_wd 2 0 (PTrace NRIA) 4));
   ORecv true 2 (back 1000 2 MNone);
   ORecv true 3 (mk_packet (PTrace NRIA) 7 (Some 1) None MNone MNone TRANSFER 7 TRANSFER 0);
   OAck AckErr (sent_packet (mk_wd 1 0 (PTrace NRIA) 30))].

Example escrow_identity_nonvacuous :
  clean nv_state nv_history = true /\ origin 0 NRIA = true /\
  snd (run nv_state nv_history) =
    [OutWd true; OutWd true; OutAck true; OutOk; OutAck false; OutAck false; OutRejected] /\
  sent_sum nv_state nv_history 0 NRIA = 34 /\
  returned_sum nv_state nv_history 0 NRIA = 3 /\
  refunded_sum nv_state nv_history 0 NRIA = 4 /\
  esc (fst (run nv_state nv_history)) 0 NRIA = 27.
Proof. vm_compute. repeat split; reflexivity. Qed.

(** (post Blackburn the prefixed nria of the sixth packet is not an allowed asset: error ack;
    the last acknowledgement is refused by the check: 30 > 27 escrowed — that packet was
    partly "returned" by a counterparty that never held it, which the model does not forbid.) *)

Example failed_receive_nonvacuous :
  snd (receive_tokens (put_esc base 0 NRIA 5) (back 10 1 MNone)) = TErr SEscrow /\
  f5_partial (put_esc base 0 NRIA 5) (back 10 1 MNone) = false.
Proof. vm_compute. split; reflexivity. Qed.

Example release_exact_nonvacuous :
  snd (step (put_esc base 0 NRIA 5) (ORecv true 1 (back 5 1 MNone))) = OutAck true /\
  resolve (put_esc base 0 NRIA 5) (p_denom (back 5 1 MNone)) = Some NRIA_BACK /\
  has_prefix NRIA_BACK TRANSFER 7 = true /\
  esc (fst (step (put_esc base 0 NRIA 5) (ORecv true 1 (back 5 1 MNone)))) 0 NRIA = 0 /\
  bal (fst (step (put_esc base 0 NRIA 5) (ORecv true 1 (back 5 1 MNone)))) 1 NRIA = 5.
Proof. vm_compute. repeat split; reflexivity. Qed.

Example withdraw_trace_form_nonvacuous :
  snd (withdraw f8_state plain_wd) = true /\ origin (w_chan plain_wd) NRIA = true /\
  esc (fst (withdraw f8_state plain_wd)) 0 NRIA = 10.
Proof. vm_compute. repeat split; reflexivity. Qed.

(** A bridge deposit that goes through: one deposit recorded, balance credited. *)
Example bridge_receive_ok :
  snd (receive_tokens (put_esc (with_bridge base) 0 NRIA 10) (back 10 3 (MAddr 9 4))) = TOk /\
  length (deposits (fst (receive_tokens (put_esc (with_bridge base) 0 NRIA 10)
                                         (back 10 3 (MAddr 9 4))))) = 1%nat /\
  bal (fst (receive_tokens (put_esc (with_bridge base) 0 NRIA 10) (back 10 3 (MAddr 9 4)))) 3 NRIA = 10.
Proof. vm_compute. repeat split; reflexivity. Qed.
