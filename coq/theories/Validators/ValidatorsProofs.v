(** C14 — proofs.  Between blocks the stored set, names forgotten, is CometBFT's set ([binv]);
    inside a block the update set holds the last power of each key acted on and, after Aspen, the
    stored set is the start set overlaid with it ([mid]).  Outside the two classes of F6
    CometBFT's rule accepts every batch. *)
From Astria Require Import Base.Bounded Base.Lists Validators.ValidatorsModel Validators.ValidatorsSpec.

Lemma fold_left_fusion {A A' B} (h : A -> A') (f : A -> B -> A) (f' : A' -> B -> A') :
  (forall a b, h (f a b) = f' (h a) b) ->
  forall l a, h (fold_left f l a) = fold_left f' l (h a).
Proof.
  intros Hf. induction l as [|b r IH]; intros a; cbn [fold_left]; [reflexivity|].
  rewrite IH, Hf. reflexivity.
Qed.

Lemma fold_left_length {A B} (f : list A -> B -> list A) (l : list B) :
  (forall a b, (length (f a b) <= S (length a))%nat) ->
  forall a, (length (fold_left f l a) <= length a + length l)%nat.
Proof.
  intros Hf. induction l as [|b r IH]; intros a; cbn [fold_left length]; [lia|].
  specialize (IH (f a b)). specialize (Hf a b). lia.
Qed.

Lemma existsb_false {A} (f : A -> bool) l :
  (forall x, In x l -> f x = false) -> existsb f l = false.
Proof.
  intros H. apply not_true_is_false. intros E. apply existsb_exists in E.
  destruct E as [x [Hin Hx]]. rewrite H in Hx by exact Hin. discriminate.
Qed.

Section MapFacts.
  Context {V : Type}.
  Implicit Types m : list (N * V).

  Definition above k m : Prop := Forall (fun kv => k < fst kv) m.

  Fixpoint sorted m : Prop :=
    match m with
    | [] => True
    | kv :: r => above (fst kv) r /\ sorted r
    end.

  Lemma lookup_ins k k' v m :
    lookup k' (ins k v m) = if k' =? k then Some v else lookup k' m.
  Proof.
    induction m as [|[k0 v0] r IH]; cbn [ins lookup].
    - reflexivity.
    - destruct (N.ltb_spec k k0).
      + cbn [lookup]. reflexivity.
      + destruct (N.eqb_spec k k0) as [->|Hne].
        * cbn [lookup]. destruct (N.eqb_spec k' k0); reflexivity.
        * cbn [lookup]. rewrite IH.
          destruct (N.eqb_spec k' k0) as [->|]; [|reflexivity].
          destruct (N.eqb_spec k0 k); [congruence|reflexivity].
  Qed.

  Lemma lookup_del k k' m :
    lookup k' (del k m) = if k' =? k then None else lookup k' m.
  Proof.
    unfold del. induction m as [|[k0 v0] r IH]; cbn [filter lookup fst].
    - destruct (k' =? k); reflexivity.
    - destruct (N.eqb_spec k0 k) as [->|Hne]; cbn [negb].
      + rewrite IH. destruct (N.eqb_spec k' k); reflexivity.
      + cbn [lookup]. rewrite IH.
        destruct (N.eqb_spec k' k0) as [->|]; [|reflexivity].
        destruct (N.eqb_spec k0 k); [congruence|reflexivity].
  Qed.

  Lemma above_le k k' m : k <= k' -> above k' m -> above k m.
  Proof. intros Hk. apply Forall_impl. intros kv. lia. Qed.

  Lemma lookup_above k m : above k m -> lookup k m = None.
  Proof.
    induction m as [|[k0 v0] r IH]; intros Hf; cbn [lookup].
    - reflexivity.
    - inversion Hf; subst. cbn in H1.
      destruct (N.eqb_spec k k0); [lia|]. apply IH; assumption.
  Qed.

  Lemma Forall_ins (P : N * V -> Prop) k v m :
    Forall P m -> P (k, v) -> Forall P (ins k v m).
  Proof.
    induction m as [|[k0 v0] r IH]; cbn [ins]; intros Hm Hp.
    - constructor; [assumption|constructor].
    - inversion Hm; subst.
      destruct (k <? k0); [constructor; assumption|].
      destruct (k =? k0); constructor; auto.
  Qed.

  Lemma sorted_ins k v m : sorted m -> sorted (ins k v m).
  Proof.
    induction m as [|[k0 v0] r IH]; cbn [ins]; intros Hs.
    - cbn. split; constructor.
    - destruct Hs as [Hf Hs].
      destruct (N.ltb_spec k k0) as [Hlt|Hge].
      + cbn [sorted fst]. split; [|split; assumption].
        constructor; [exact Hlt|]. apply (above_le k k0); [lia|exact Hf].
      + destruct (N.eqb_spec k k0) as [->|Hne].
        * cbn [sorted fst]. split; assumption.
        * cbn [sorted fst]. split; [|apply IH; assumption].
          apply Forall_ins; [assumption|]. cbn. lia.
  Qed.

  Lemma Forall_del (P : N * V -> Prop) k m : Forall P m -> Forall P (del k m).
  Proof. intros H. apply incl_Forall with (2 := H). apply incl_filter. Qed.

  Lemma sorted_del k m : sorted m -> sorted (del k m).
  Proof.
    induction m as [|kv r IH]; intros Hs.
    - exact I.
    - destruct Hs as [Hf Hs]. unfold del. cbn [filter].
      destruct (negb (fst kv =? k)).
      + cbn [sorted]. split; [apply (Forall_del _ k); assumption|apply IH; assumption].
      + apply IH; assumption.
  Qed.

  Lemma found_above_head k1 v1 k2 v2 r2 :
    above k2 r2 -> lookup k1 ((k2, v2) :: r2) = Some v1 -> k2 <= k1.
  Proof.
    intros F2 E. destruct (N.le_gt_cases k2 k1) as [|Hlt]; [assumption|].
    rewrite lookup_above in E; [discriminate|].
    constructor; [exact Hlt|]. apply (above_le k1 k2); [lia|exact F2].
  Qed.

  Lemma sorted_ext m1 : forall m2,
    sorted m1 -> sorted m2 -> (forall k, lookup k m1 = lookup k m2) -> m1 = m2.
  Proof.
    induction m1 as [|[k1 v1] r1 IH]; intros [|[k2 v2] r2] H1 H2 He.
    - reflexivity.
    - specialize (He k2). cbn in He. rewrite N.eqb_refl in He. discriminate.
    - specialize (He k1). cbn in He. rewrite N.eqb_refl in He. discriminate.
    - destruct H1 as [F1 S1], H2 as [F2 S2]. cbn [fst] in F1, F2.
      assert (k1 = k2) as ->.
      { apply N.le_antisymm.
        - apply (found_above_head k2 v2 k1 v1 r1 F1). rewrite He. cbn. rewrite N.eqb_refl. reflexivity.
        - apply (found_above_head k1 v1 k2 v2 r2 F2). rewrite <- He. cbn. rewrite N.eqb_refl. reflexivity. }
      pose proof (He k2) as E. cbn [lookup] in E. rewrite N.eqb_refl in E.
      injection E as ->. f_equal.
      apply IH; try assumption.
      intros k. pose proof (He k) as E. cbn [lookup] in E.
      destruct (N.eqb_spec k k2) as [Hk|]; [|exact E].
      rewrite Hk, !lookup_above; auto.
  Qed.

  Lemma length_ins_le k v m : (length (ins k v m) <= S (length m))%nat.
  Proof.
    induction m as [|[k0 v0] r IH]; cbn [ins length].
    - lia.
    - destruct (k <? k0); [cbn [length]; lia|].
      destruct (k =? k0); cbn [length]; lia.
  Qed.

  Lemma length_del_le k m : (length (del k m) <= length m)%nat.
  Proof.
    unfold del. induction m as [|kv r IH]; cbn [filter length]; [lia|].
    destruct (negb (fst kv =? k)); cbn [length]; lia.
  Qed.

  Lemma length_ins k v m :
    sorted m ->
    (length (ins k v m) + (if is_some (lookup k m) then 1 else 0) = S (length m))%nat.
  Proof.
    induction m as [|[k0 v0] r IH]; cbn [ins lookup]; intros Hs.
    - reflexivity.
    - destruct Hs as [Hf Hs]. cbn [fst] in Hf. specialize (IH Hs).
      destruct (N.ltb_spec k k0) as [Hlt|Hge].
      + destruct (N.eqb_spec k k0); [lia|].
        rewrite lookup_above; [cbn; lia|]. apply (above_le k k0); [lia|exact Hf].
      + destruct (N.eqb_spec k k0) as [->|Hne]; cbn [length is_some]; lia.
  Qed.

  Lemma length_del k m :
    sorted m ->
    (length (del k m) + (if is_some (lookup k m) then 1 else 0) = length m)%nat.
  Proof.
    induction m as [|[k0 v0] r IH]; intros Hs.
    - reflexivity.
    - destruct Hs as [Hf Hs]. cbn [fst] in Hf. specialize (IH Hs).
      unfold del in *. cbn [filter fst lookup].
      destruct (N.eqb_spec k k0) as [->|Hne].
      + rewrite N.eqb_refl, (lookup_above _ _ Hf) in *. cbn [negb is_some length] in *. lia.
      + destruct (N.eqb_spec k0 k); [congruence|]. cbn [negb length]. lia.
  Qed.

  Lemma ins_nonempty k v m : ins k v m <> [].
  Proof.
    destruct m as [|[k0 v0] r]; cbn [ins]; [discriminate|].
    destruct (k <? k0); [discriminate|]. destruct (k =? k0); discriminate.
  Qed.

  Lemma In_lookup_sorted m k v : sorted m -> In (k, v) m -> lookup k m = Some v.
  Proof.
    induction m as [|[k0 v0] r IH]; intros Hs Hin.
    - destruct Hin.
    - destruct Hs as [Hf Hs]. cbn [fst] in Hf. cbn [lookup].
      destruct Hin as [E|Hin].
      + injection E as -> ->. rewrite N.eqb_refl. reflexivity.
      + pose proof (proj1 (Forall_forall _ _) Hf _ Hin) as Hk. cbn in Hk.
        destruct (N.eqb_spec k k0); [lia|]. apply IH; assumption.
  Qed.

  Lemma has_key k m : existsb (N.eqb k) (map fst m) = is_some (lookup k m).
  Proof.
    induction m as [|[k0 v0] r IH]; cbn [map existsb fst lookup]; [reflexivity|].
    destruct (k =? k0); [reflexivity|exact IH].
  Qed.

  Lemma sorted_nodup_keys m : sorted m -> has_dup (map fst m) = false.
  Proof.
    induction m as [|[k v] r IH]; cbn [map has_dup fst]; intros Hs; [reflexivity|].
    destruct Hs as [Hf Hs]. cbn [fst] in Hf.
    rewrite has_key, (lookup_above _ _ Hf), IH by exact Hs. reflexivity.
  Qed.

  (** How [ValidatorSet::apply_updates] and the post-Aspen [execute] write one entry. *)
  Definition upd_one m k (p : N) (v : V) := if p =? 0 then del k m else ins k v m.

  Lemma lookup_upd_one k' m k p v :
    lookup k' (upd_one m k p v) =
    if k' =? k then if p =? 0 then None else Some v else lookup k' m.
  Proof. unfold upd_one. destruct (p =? 0); [apply lookup_del|apply lookup_ins]. Qed.

  Lemma sorted_upd_one m k p v : sorted m -> sorted (upd_one m k p v).
  Proof. unfold upd_one. destruct (p =? 0); [apply sorted_del|apply sorted_ins]. Qed.

  Lemma length_upd_one_le m k p v : (length (upd_one m k p v) <= S (length m))%nat.
  Proof.
    unfold upd_one. destruct (p =? 0); [|apply length_ins_le].
    pose proof (length_del_le k m). lia.
  Qed.
End MapFacts.

Definition mapv {V W : Type} (f : V -> W) : list (N * V) -> list (N * W) :=
  map (fun kv => (fst kv, f (snd kv))).

Lemma lookup_mapv {V W : Type} (f : V -> W) k (m : list (N * V)) :
  lookup k (mapv f m) = option_map f (lookup k m).
Proof.
  induction m as [|[k0 v0] r IH]; cbn [mapv map lookup fst snd].
  - reflexivity.
  - destruct (k =? k0); [reflexivity|exact IH].
Qed.

Lemma is_some_lookup_mapv {V W : Type} (f : V -> W) k (m : list (N * V)) :
  is_some (lookup k (mapv f m)) = is_some (lookup k m).
Proof. rewrite lookup_mapv. destruct (lookup k m); reflexivity. Qed.

Lemma sorted_mapv {V W : Type} (f : V -> W) (m : list (N * V)) :
  sorted m -> sorted (mapv f m).
Proof.
  induction m as [|kv r IH]; cbn [mapv map sorted]; intros Hs.
  - exact I.
  - destruct Hs as [Hf Hs]. split; [|apply IH; assumption].
    apply Forall_map. exact Hf.
Qed.

Lemma mapv_del {V W : Type} (f : V -> W) k (m : list (N * V)) :
  mapv f (del k m) = del k (mapv f m).
Proof.
  unfold del, mapv. induction m as [|kv r IH]; cbn [map filter fst].
  - reflexivity.
  - destruct (negb (fst kv =? k)); cbn [map]; rewrite IH; reflexivity.
Qed.

Lemma mapv_ins {V W : Type} (f : V -> W) k v (m : list (N * V)) :
  mapv f (ins k v m) = ins k (f v) (mapv f m).
Proof.
  unfold mapv. induction m as [|[k0 v0] r IH]; cbn [map ins fst snd].
  - reflexivity.
  - destruct (k <? k0); [reflexivity|].
    destruct (k =? k0); cbn [map fst snd]; [reflexivity|]. rewrite IH. reflexivity.
Qed.

Lemma proj_as_mapv m : proj m = map (fun kv => (fst kv, fst (snd kv))) m.
Proof. reflexivity. Qed.

Lemma lookup_proj k m : lookup k (proj m) = option_map fst (lookup k m).
Proof. apply (lookup_mapv fst). Qed.

Lemma is_some_lookup_proj k m : is_some (lookup k (proj m)) = is_some (lookup k m).
Proof. apply (is_some_lookup_mapv fst). Qed.

Lemma sorted_proj m : sorted m -> sorted (proj m).
Proof. apply (sorted_mapv fst). Qed.

Lemma proj_upd_one m k p n : proj (upd_one m k p (p, n)) = apply_one (proj m) (k, p).
Proof.
  unfold upd_one, apply_one. cbn [fst snd].
  destruct (p =? 0); [apply (mapv_del fst)|apply (mapv_ins fst)].
Qed.

Lemma proj_nil_iff m : proj m = [] <-> m = [].
Proof. destruct m; cbn; split; intros H; try reflexivity; discriminate. Qed.

Lemma proj_migrate st : proj (st_vals (migrate st)) = proj (st_vals st).
Proof. apply map_map. Qed.

(** The entry of a key of CometBFT's set after an update to power [p]; after a batch whose
    update of the key, if any, is [u]. *)
Definition ov (p : N) : option N := if p =? 0 then None else Some p.
Definition overlay (u x : option N) : option N :=
  match u with Some p => ov p | None => x end.

Lemma lookup_apply_one k c kp :
  lookup k (apply_one c kp) = if k =? fst kp then ov (snd kp) else lookup k c.
Proof. exact (lookup_upd_one k c (fst kp) (snd kp) (snd kp)). Qed.

Lemma sorted_apply_lenient b c : sorted c -> sorted (apply_lenient c b).
Proof. apply (fold_left_inv sorted apply_one). intros a kp. apply sorted_upd_one. Qed.

Lemma lookup_apply_lenient k b : forall c,
  sorted b ->
  lookup k (apply_lenient c b) = overlay (lookup k b) (lookup k c).
Proof.
  unfold apply_lenient. induction b as [|[k1 p1] r IH]; intros c Hb; cbn [fold_left lookup].
  - reflexivity.
  - destruct Hb as [Hf Hs]. cbn [fst] in Hf.
    rewrite IH by exact Hs. rewrite lookup_apply_one. cbn [fst snd].
    destruct (N.eqb_spec k k1) as [->|Hne].
    + rewrite lookup_above by exact Hf. reflexivity.
    + reflexivity.
Qed.

Lemma apply_updates_sorted c b :
  sorted b -> (forall k, lookup k b = Some 0 -> is_some (lookup k c) = true) ->
  apply_lenient c b <> [] -> apply_updates c b = Some (apply_lenient c b).
Proof.
  intros Hs Hrem Hne. unfold apply_updates.
  rewrite (sorted_nodup_keys _ Hs), existsb_false.
  - destruct (apply_lenient c b); [contradiction|reflexivity].
  - intros [k p] Hin. cbn [fst snd]. destruct (N.eqb_spec p 0) as [->|]; [|reflexivity].
    rewrite (Hrem k (In_lookup_sorted _ _ _ Hs Hin)). reflexivity.
Qed.

Lemma proj_apply_named b m : proj (apply_named m b) = apply_lenient (proj m) b.
Proof.
  apply (fold_left_fusion proj (fun m kp => upd_one m (fst kp) (snd kp) (snd kp, 0)) apply_one).
  intros a [k p]. apply proj_upd_one.
Qed.

Lemma sorted_apply_named b m : sorted m -> sorted (apply_named m b).
Proof.
  apply (fold_left_inv sorted (fun m kp => upd_one m (fst kp) (snd kp) (snd kp, 0))).
  intros a kp. apply sorted_upd_one.
Qed.

Lemma length_apply_named_le b m : (length (apply_named m b) <= length m + length b)%nat.
Proof.
  apply (fold_left_length (fun m kp => upd_one m (fst kp) (snd kp) (snd kp, 0))).
  intros a kp. apply length_upd_one_le.
Qed.

Lemma last_power_snoc k l a :
  last_power k (l ++ [a]) = if k =? a_key a then Some (a_power a) else last_power k l.
Proof.
  induction l as [|b r IH]; cbn [app last_power].
  - rewrite N.eqb_sym. destruct (k =? a_key a); reflexivity.
  - rewrite IH. destruct (k =? a_key a); reflexivity.
Qed.

Lemma last_power_In k l p :
  last_power k l = Some p -> exists a, In a l /\ a_key a = k /\ a_power a = p.
Proof.
  induction l as [|a r IH]; cbn [last_power]; intros H.
  - discriminate.
  - destruct (last_power k r) as [q|] eqn:E.
    + injection H as <-. destruct (IH eq_refl) as [a' [Hin Ha']].
      exists a'. split; [right; exact Hin|exact Ha'].
    + destruct (N.eqb_spec (a_key a) k) as [Hk|]; [|discriminate].
      injection H as <-. exists a. split; [left; reflexivity|split; [exact Hk|reflexivity]].
Qed.

Lemma last_power_of_In k l a :
  In a l -> a_key a = k -> exists p, last_power k l = Some p.
Proof.
  induction l as [|a0 r IH]; cbn [last_power]; intros Hin Hk.
  - destruct Hin.
  - destruct (last_power k r) as [q|] eqn:E; [exists q; reflexivity|].
    destruct Hin as [->|Hin].
    + rewrite Hk, N.eqb_refl. eexists; reflexivity.
    + destruct (IH Hin Hk) as [p Hp]. discriminate.
Qed.

Lemma check_Ok st sg a meta :
  check st sg a = Ok meta ->
  (a_power a = 0 -> is_some (lookup (a_key a) (st_vals st)) = true) /\
  if st_aspen st then
    exists c, st_count st = Some c /\ (a_power a = 0 -> 1 < c) /\
              meta = Some (c, is_some (lookup (a_key a) (st_vals st)))
  else meta = None.
Proof.
  unfold check. destruct (negb (sg =? st_sudo st)); [discriminate|].
  destruct (st_aspen st); cbn [negb].
  - destruct (st_count st) as [c|]; [|discriminate].
    destruct (N.eqb_spec (a_power a) 0) as [Hp|Hp].
    + destruct (N.ltb_spec 1 c); [|discriminate]. cbn [negb].
      destruct (is_some _); [|discriminate]. intros [= <-].
      split; [reflexivity|]. exists c. auto.
    + intros [= <-]. split; [contradiction|]. exists c.
      split; [reflexivity|]. split; [contradiction|reflexivity].
  - destruct (N.eqb_spec (a_power a) 0) as [Hp|Hp].
    + destruct (lookup (a_key a) (st_vals st)); [|discriminate].
      destruct (vlen (st_vals st) =? 1); [discriminate|]. intros [= <-]. split; reflexivity.
    + intros [= <-]. split; [contradiction|reflexivity].
Qed.

Definition check_ok (st : vstate) (sg : N) (a : action) : bool :=
  match check st sg a with Ok _ => true | Err _ => false end.

Definition rem_in (s0 : list (N * (N * N))) (a : action) : Prop :=
  a_power a = 0 -> is_some (lookup (a_key a) s0) = true.

Lemma removals_present s0 acts :
  Forall (rem_in s0) acts ->
  forall k, last_power k acts = Some 0 -> is_some (lookup k s0) = true.
Proof.
  intros Hf k Hk. destruct (last_power_In _ _ _ Hk) as (a & Hin & <- & Hp).
  rewrite Forall_forall in Hf. exact (Hf a Hin Hp).
Qed.

Lemma check_ok_removal st sg a : check_ok st sg a = true -> rem_in (st_vals st) a.
Proof.
  unfold check_ok. destruct (check st sg a) as [meta|e] eqn:E; [|discriminate].
  intros _. exact (proj1 (check_Ok _ _ _ _ E)).
Qed.

Lemma exec_action_Ok st sg a st' :
  exec_action st sg a = Ok st' ->
  rem_in (st_vals st) a /\ st_aspen st' = st_aspen st /\
  st_upds st' = ins (a_key a) (a_power a) (st_upds st) /\
  if st_aspen st then
    exists c, st_count st = Some c /\ (a_power a = 0 -> 1 < c) /\
      st_vals st' = upd_one (st_vals st) (a_key a) (a_power a) (a_power a, a_name a) /\
      st_count st' = Some (if a_power a =? 0 then saturating_sub c 1
                           else if is_some (lookup (a_key a) (st_vals st)) then c
                           else saturating_add U64_MAX c 1)
  else st_vals st' = st_vals st.
Proof.
  unfold exec_action, upd_one.
  destruct (check st sg a) as [meta|e] eqn:Ec; [|discriminate]. intros [= <-].
  apply check_Ok in Ec. destruct Ec as [Hrem Ec]. split; [exact Hrem|].
  destruct (st_aspen st) eqn:Ea.
  - destruct Ec as (c & Hc & H1 & ->).
    destruct (a_power a =? 0), (is_some (lookup (a_key a) (st_vals st)));
      (split; [exact Ea|]); (split; [reflexivity|]); exists c; repeat split; assumption.
  - rewrite Ec. split; [exact Ea|]. split; reflexivity.
Qed.

(** [s0]: the stored set when the block's transactions start; [done]: the actions executed
    since.  After Aspen the stored set is [s0] overlaid with the update set; before, it is still
    [s0], and the removals were checked against it. *)
Definition mid (s0 : list (N * (N * N))) (done : list action) (st : vstate) : Prop :=
  sorted (st_upds st) /\
  (forall k, lookup k (st_upds st) = last_power k done) /\
  (length (st_upds st) <= length done)%nat /\
  if st_aspen st then
    sorted (st_vals st) /\
    (forall k, lookup k (proj (st_vals st)) = overlay (last_power k done) (lookup k (proj s0))) /\
    st_count st = Some (vlen (st_vals st)) /\
    (length (st_vals st) <= length s0 + length done)%nat /\
    (s0 <> [] -> st_vals st <> [])
  else st_vals st = s0 /\ Forall (rem_in s0) done.

Lemma mid_action s0 done st sg a st' :
  mid s0 done st -> N.of_nat (length s0 + length done) < U64_MAX ->
  exec_action st sg a = Ok st' -> mid s0 (done ++ [a]) st'.
Proof.
  intros (Hsu & Hlk & Hlu & Hm) Hb E.
  destruct (exec_action_Ok _ _ _ _ E) as (Hrem & Ha & Hu & Hv).
  unfold mid. rewrite Ha, Hu, app_length. cbn [length].
  split; [apply sorted_ins; exact Hsu|].
  split; [intros k; rewrite lookup_ins, last_power_snoc, Hlk; reflexivity|].
  split; [pose proof (length_ins_le (a_key a) (a_power a) (st_upds st)); lia|].
  destruct (st_aspen st).
  - destruct Hm as (Hsv & Hrel & Hc & Hlv & Hne). destruct Hv as (c & Hc' & H1 & -> & ->).
    rewrite Hc in Hc'. injection Hc' as <-.
    split; [apply sorted_upd_one; exact Hsv|].
    split; [intros k; rewrite proj_upd_one, lookup_apply_one, last_power_snoc; cbn [fst snd];
            destruct (k =? a_key a); [reflexivity|apply Hrel]|].
    (* the count follows the size: no saturation below [U64_MAX] entries, and a removal
       passed the checks [1 < count] and "present" *)
    unfold upd_one, vlen, saturating_sub in *.
    destruct (N.eqb_spec (a_power a) 0) as [Hp|Hp].
    + pose proof (length_del (a_key a) _ Hsv) as Hl. rewrite (Hrem Hp) in Hl. specialize (H1 Hp).
      split; [f_equal; lia|]. split; [lia|].
      intros _ Hnil. rewrite Hnil in Hl. cbn [length] in Hl. lia.
    + pose proof (length_ins (a_key a) (a_power a, a_name a) _ Hsv) as Hl.
      split; [|split; [lia|intros _; apply ins_nonempty]].
      destruct (is_some _); [|rewrite saturating_add_exact by lia]; f_equal; lia.
  - destruct Hm as (Hs0 & Hr). rewrite Hv. split; [exact Hs0|].
    apply Forall_app. split; [exact Hr|]. constructor; [|constructor].
    intros Hp. rewrite <- Hs0. apply Hrem. exact Hp.
Qed.

(** Induction over a block's transactions, for relations closed under concatenation of the
    executed actions. *)
Section Runs.
  Variable P : vstate -> list action -> vstate -> Prop.
  Hypothesis P_nil : forall s, P s [] s.
  Hypothesis P_app : forall s1 l1 s2 l2 s3, P s1 l1 s2 -> P s2 l2 s3 -> P s1 (l1 ++ l2) s3.

  Lemma run_txs_ind md st0 :
    (forall s t s', exec_tx s t = Ok s' ->
       (md = Finalize -> constructible st0 t = true) -> P s (t_acts t) s') ->
    forall txs s s' rs, run_txs md st0 s txs = (s', rs) -> P s (succ_acts txs rs) s'.
  Proof.
    intros P_tx. induction txs as [|t r IH]; intros s s' rs; cbn [run_txs].
    - intros [= <- <-]. apply P_nil.
    - destruct (match md with Finalize => negb (constructible st0 t) | Propose => false end) eqn:Esk;
        [|destruct (exec_tx s t) as [s1|e] eqn:E1].
      + destruct (run_txs md st0 s r) as [s2 rs2] eqn:E2. intros [= <- <-]. apply (IH _ _ _ E2).
      + destruct (run_txs md st0 s1 r) as [s2 rs2] eqn:E2. intros [= <- <-].
        apply (P_app s (t_acts t) s1 _ s2); [|apply (IH _ _ _ E2)].
        apply (P_tx _ _ _ E1). intros ->. apply negb_false_iff. exact Esk.
      + destruct (run_txs md st0 s r) as [s2 rs2] eqn:E2. intros [= <- <-]. apply (IH _ _ _ E2).
  Qed.

  Hypothesis P_nonce : forall s n, P s [] (set_nonces s n).
  Hypothesis P_act : forall s sg a s', exec_action s sg a = Ok s' -> P s [a] s'.

  Lemma exec_tx_ind s t s' : exec_tx s t = Ok s' -> P s (t_acts t) s'.
  Proof.
    unfold exec_tx.
    destruct (negb (nonce_of s (t_signer t) =? t_nonce t)); [discriminate|].
    destruct (checked_add U32_MAX (nonce_of s (t_signer t)) 1) as [n'|]; [|discriminate].
    assert (Hacts : forall l s1, exec_actions s1 (t_signer t) l = Ok s' -> P s1 l s').
    { induction l as [|a r IH]; intros s1; cbn [exec_actions].
      - intros [= <-]. apply P_nil.
      - destruct (exec_action s1 (t_signer t) a) as [s2|e] eqn:E; [|discriminate].
        intros H. exact (P_app s1 [a] s2 r s' (P_act _ _ _ _ E) (IH s2 H)). }
    intros H. exact (P_app s [] _ (t_acts t) s' (P_nonce s _) (Hacts _ _ H)).
  Qed.

  Lemma run_txs_act_ind md st0 txs s s' rs :
    run_txs md st0 s txs = (s', rs) -> P s (succ_acts txs rs) s'.
  Proof. apply run_txs_ind. intros s1 t s2 E _. apply (exec_tx_ind _ _ _ E). Qed.
End Runs.

Lemma run_txs_aspen md st0 txs st st' rs :
  run_txs md st0 st txs = (st', rs) -> st_aspen st' = st_aspen st.
Proof.
  apply (run_txs_act_ind (fun s _ s' => st_aspen s' = st_aspen s)).
  - reflexivity.
  - intros s1 _ s2 _ s3 H1 H2. rewrite H2. exact H1.
  - reflexivity.
  - intros s sg a s' E. apply (exec_action_Ok _ _ _ _ E).
Qed.

(** [mid] is carried along a run, as long as the count cannot saturate. *)
Definition carries (s0 : list (N * (N * N))) (s : vstate) (l : list action) (s' : vstate) : Prop :=
  forall done, mid s0 done s -> N.of_nat (length s0 + length (done ++ l)) < U64_MAX ->
               mid s0 (done ++ l) s'.

Lemma carries_app s0 s1 l1 s2 l2 s3 :
  carries s0 s1 l1 s2 -> carries s0 s2 l2 s3 -> carries s0 s1 (l1 ++ l2) s3.
Proof.
  intros H1 H2 done Hm Hb. rewrite app_assoc in *. apply H2; [apply H1|]; try assumption.
  rewrite app_length in Hb. lia.
Qed.

Lemma run_txs_mid s0 md st0 txs st st' rs :
  run_txs md st0 st txs = (st', rs) -> carries s0 st (succ_acts txs rs) st'.
Proof.
  apply (run_txs_act_ind (carries s0)).
  - intros s done Hm _. rewrite app_nil_r. exact Hm.
  - apply carries_app.
  - intros s n done Hm _. rewrite app_nil_r. exact Hm.
  - intros s sg a s' E done Hm Hb. apply (mid_action s0 done s sg a s' Hm); [|exact E].
    rewrite app_length in Hb. lia.
Qed.

Lemma run_block_inv st b st' batch rs :
  run_block st b = (st', batch, rs) ->
  exists st2,
    run_txs (b_mode b) st (pre_exec st (st_height st + 1)) (b_txs b) = (st2, rs) /\
    batch = st_upds st2 /\ st' = fst (end_block st2 (st_height st + 1)).
Proof.
  unfold run_block.
  destruct (run_txs (b_mode b) st (pre_exec st (st_height st + 1)) (b_txs b)) as [st2 rs2].
  intros [= <- <- <-]. exists st2. repeat split.
Qed.

Lemma block_class_eq f st b :
  block_class f st b =
  f (pre_exec st (st_height st + 1)) (succ_acts (b_txs b) (snd (run_block st b))).
Proof. unfold block_class. destruct (run_block st b) as [[st' batch] rs]. reflexivity. Qed.

Definition acts_of (txs : list tx) : nat :=
  fold_right (fun t m => (length (t_acts t) + m)%nat) 0%nat txs.

Lemma succ_acts_length txs : forall rs, (length (succ_acts txs rs) <= acts_of txs)%nat.
Proof.
  unfold acts_of. induction txs as [|t r IH]; intros [|x rs]; cbn [succ_acts fold_right length]; try lia.
  specialize (IH rs). destruct x; rewrite ?app_length; lia.
Qed.

(** Invariant between blocks; [c] is CometBFT's set. *)
Definition binv (st : vstate) (c : cset) : Prop :=
  sorted (st_vals st) /\ proj (st_vals st) = c /\ st_upds st = [] /\
  (st_aspen st = true -> st_count st = Some (vlen (st_vals st))).

Lemma pre_exec_binv st c h : binv st c -> binv (pre_exec st h) c.
Proof.
  unfold pre_exec. destruct (st_aspen_h st =? h); [|trivial].
  intros (Hs & Hp & Hu & _). unfold binv. rewrite proj_migrate. cbn.
  split; [apply (sorted_mapv (fun pn : N * N => (fst pn, 0))); exact Hs|].
  split; [exact Hp|]. split; [exact Hu|]. intros _. unfold vlen. rewrite map_length. reflexivity.
Qed.

Lemma pre_exec_length st h : length (st_vals (pre_exec st h)) = length (st_vals st).
Proof. unfold pre_exec. destruct (st_aspen_h st =? h); [apply map_length|reflexivity]. Qed.

Lemma migrate_keys st k :
  is_some (lookup k (st_vals (migrate st))) = is_some (lookup k (st_vals st)).
Proof. apply (is_some_lookup_mapv (fun pn : N * N => (fst pn, 0))). Qed.

Lemma pre_exec_keys st h k :
  is_some (lookup k (st_vals (pre_exec st h))) = is_some (lookup k (st_vals st)).
Proof. unfold pre_exec. destruct (st_aspen_h st =? h); [apply migrate_keys|reflexivity]. Qed.

Lemma mid_start st c : binv st c -> mid (st_vals st) [] st.
Proof.
  intros (Hs & _ & Hu & Hc). unfold mid. rewrite Hu. cbn [length last_power lookup overlay].
  split; [exact I|]. split; [reflexivity|]. split; [lia|].
  destruct (st_aspen st); [|split; [reflexivity|constructor]].
  split; [exact Hs|]. split; [reflexivity|]. split; [apply Hc; reflexivity|]. split; [lia|auto].
Qed.

Lemma mid_mirror s0 done st :
  sorted s0 -> mid s0 done st -> st_aspen st = true ->
  proj (st_vals st) = apply_lenient (proj s0) (st_upds st).
Proof.
  intros Hs0 (Hsu & Hlk & _ & Hm) Ea. rewrite Ea in Hm. destruct Hm as (Hsv & Hrel & _).
  apply sorted_ext; [apply sorted_proj; exact Hsv|apply sorted_apply_lenient, sorted_proj; exact Hs0|].
  intros k. rewrite Hrel, lookup_apply_lenient, Hlk by exact Hsu. reflexivity.
Qed.

Lemma mid_end s0 done st h :
  sorted s0 -> mid s0 done st ->
  binv (fst (end_block st h)) (apply_lenient (proj s0) (st_upds st)) /\
  (length (st_vals (fst (end_block st h))) <= length s0 + length done)%nat.
Proof.
  intros Hs0 Hm. pose proof (mid_mirror s0 done st Hs0 Hm) as Hmir.
  destruct Hm as (Hsu & Hlk & Hlu & Hm). unfold end_block, binv. cbn. destruct (st_aspen st).
  - destruct Hm as (Hsv & _ & Hc & Hlv & _).
    split; [|exact Hlv]. split; [exact Hsv|]. split; [exact (Hmir eq_refl)|].
    split; [reflexivity|intros _; exact Hc].
  - destruct Hm as (-> & _). pose proof (length_apply_named_le (st_upds st) s0).
    split; [|lia]. split; [apply sorted_apply_named; exact Hs0|].
    split; [apply proj_apply_named|]. split; [reflexivity|discriminate].
Qed.

Lemma known_a_spec st1 acts :
  known_a st1 acts = false <->
  (st_aspen st1 = true ->
   forall k, last_power k acts = Some 0 -> is_some (lookup k (st_vals st1)) = true).
Proof.
  unfold known_a. split.
  - intros H Ea k Hl. rewrite Ea in H. cbn [andb] in H.
    destruct (is_some (lookup k (st_vals st1))) eqn:Ex; [reflexivity|].
    destruct (last_power_In _ _ _ Hl) as (a & Hin & Hk & _).
    rewrite <- H. apply existsb_exists. exists a.
    split; [exact Hin|]. rewrite Hk, Ex, Hl. reflexivity.
  - intros H. destruct (st_aspen st1); [cbn [andb]|reflexivity].
    apply existsb_false. intros a _.
    destruct (last_power (a_key a) acts) as [[|p]|] eqn:El; try apply andb_false_r.
    rewrite (H eq_refl _ El). reflexivity.
Qed.

Lemma all_removed_known_b st1 acts :
  st_aspen st1 = false -> sorted (st_vals st1) -> st_vals st1 <> [] ->
  (forall k, overlay (last_power k acts) (lookup k (proj (st_vals st1))) = None) ->
  known_b st1 acts = true.
Proof.
  intros Ea Hs Hne Hall. unfold known_b. rewrite Ea.
  destruct (st_vals st1) as [|kv0 r0] eqn:Ev; [contradiction|]. rewrite <- Ev in *.
  cbn [negb andb]. apply andb_true_intro. split; apply forallb_forall.
  - intros [k [p n]] Hin. cbn [fst]. specialize (Hall k).
    rewrite lookup_proj, (In_lookup_sorted _ _ _ Hs Hin) in Hall.
    destruct (last_power k acts) as [[|q]|]; [reflexivity|discriminate|discriminate].
  - intros a Hin. specialize (Hall (a_key a)).
    destruct (last_power_of_In _ _ _ Hin eq_refl) as [q Hq]. rewrite Hq in *.
    destruct q; [reflexivity|discriminate].
Qed.

Lemma batch_applicable st1 acts st2 :
  sorted (st_vals st1) -> st_vals st1 <> [] ->
  mid (st_vals st1) acts st2 -> st_aspen st2 = st_aspen st1 ->
  known_a st1 acts = false -> known_b st1 acts = false ->
  let c := proj (st_vals st1) in
  apply_updates c (st_upds st2) = Some (apply_lenient c (st_upds st2)) /\
  apply_lenient c (st_upds st2) <> [].
Proof.
  intros Hs1 Hne1 Hm2 Ha2 Hka Hkb c.
  pose proof (mid_mirror _ _ _ Hs1 Hm2) as Hmir. fold c in Hmir.
  destruct Hm2 as (Hsu2 & Hlk & _ & Hm2). rewrite Ha2 in Hm2, Hmir.
  enough (Hboth : (forall k, last_power k acts = Some 0 -> is_some (lookup k (st_vals st1)) = true) /\
                  apply_lenient c (st_upds st2) <> []).
  { destruct Hboth as [Hrem Hres]. split; [|exact Hres].
    apply apply_updates_sorted; [exact Hsu2| |exact Hres].
    intros k Hk. rewrite Hlk in Hk. unfold c. rewrite is_some_lookup_proj. apply Hrem. exact Hk. }
  destruct (st_aspen st1) eqn:Ea1.
  - split; [apply known_a_spec; assumption|].
    rewrite <- (Hmir eq_refl), proj_nil_iff. apply Hm2. exact Hne1.
  - destruct Hm2 as [_ Hrem]. split; [exact (removals_present _ _ Hrem)|].
    intros Hnil. rewrite (all_removed_known_b st1 acts Ea1 Hs1 Hne1) in Hkb; [discriminate|].
    intros k. rewrite <- Hlk. fold c. rewrite <- lookup_apply_lenient, Hnil by exact Hsu2. reflexivity.
Qed.

Lemma run_block_ok st c b st' batch rs :
  binv st c -> N.of_nat (length (st_vals st) + acts_of (b_txs b)) < U64_MAX ->
  run_block st b = (st', batch, rs) ->
  binv st' (apply_lenient c batch) /\
  (length (st_vals st') <= length (st_vals st) + acts_of (b_txs b))%nat /\
  (c <> [] -> block_known st b = false ->
   apply_updates c batch = Some (apply_lenient c batch) /\ apply_lenient c batch <> []).
Proof.
  intros Hb Hsz Hrun.
  pose proof (block_class_eq (fun st1 acts => known_a st1 acts || known_b st1 acts) st b) as Hkn.
  rewrite Hrun in Hkn. fold block_known in Hkn. cbn [snd] in Hkn.
  destruct (run_block_inv _ _ _ _ _ Hrun) as (st2 & Etx & -> & ->).
  set (h := st_height st + 1) in *. set (st1 := pre_exec st h) in *.
  set (acts := succ_acts (b_txs b) rs) in *.
  pose proof (pre_exec_binv st c h Hb) as Hb1. fold st1 in Hb1.
  pose proof Hb1 as (Hs1 & Hp1 & _).
  pose proof (succ_acts_length (b_txs b) rs) as Hacts. fold acts in Hacts.
  pose proof (pre_exec_length st h) as Hlen. fold st1 in Hlen.
  assert (Hm2 : mid (st_vals st1) acts st2).
  { apply (run_txs_mid _ _ _ _ _ _ _ Etx []); [apply (mid_start st1 c Hb1)|].
    cbn [app]. fold acts. lia. }
  destruct (mid_end _ _ _ h Hs1 Hm2) as [Hb' Hl']. rewrite Hp1 in Hb'.
  split; [exact Hb'|]. split; [lia|]. intros Hne Hk.
  rewrite Hkn in Hk. apply orb_false_iff in Hk. destruct Hk as [Hka Hkb].
  rewrite <- Hp1 in Hne |- *. apply (batch_applicable st1 acts st2); try assumption.
  - rewrite <- proj_nil_iff. exact Hne.
  - apply (run_txs_aspen _ _ _ _ _ _ Etx).
Qed.

Lemma run_blocks_ok bs : forall st c st' batches,
  binv st c -> N.of_nat (length (st_vals st) + total_actions bs) < U64_MAX ->
  run_blocks st bs = (st', batches) ->
  binv st' (fold_lenient c batches) /\
  (c <> [] -> hist_any block_known st bs = false ->
   fold_strict c batches = Some (fold_lenient c batches) /\ fold_lenient c batches <> []).
Proof.
  induction bs as [|b r IH]; intros st c st' batches Hb Hsz; cbn [run_blocks hist_any].
  - intros [= <- <-]. cbn. split; [exact Hb|]. intros Hne _. split; [reflexivity|exact Hne].
  - change (total_actions (b :: r)) with (acts_of (b_txs b) + total_actions r)%nat in Hsz.
    destruct (run_block st b) as [[st1 batch] rs] eqn:Eb.
    destruct (run_blocks st1 r) as [st2 batches2] eqn:Er.
    intros [= <- <-].
    destruct (run_block_ok st c b st1 batch rs Hb ltac:(lia) Eb) as (Hb1 & Hl1 & Hstrict).
    destruct (IH st1 (apply_lenient c batch) st2 batches2 Hb1 ltac:(lia) Er) as (Hb2 & Hstrict2).
    cbn [fold_lenient fold_strict fst]. split; [exact Hb2|].
    intros Hne Hk. apply orb_false_iff in Hk. destruct Hk as [Hk1 Hk2].
    destruct (Hstrict Hne Hk1) as [Happ Hne1]. rewrite Happ.
    apply Hstrict2; assumption.
Qed.

Lemma genesis_length c : (length (st_vals (genesis c)) <= length (g_vals c))%nat.
Proof.
  apply (fold_left_length (fun m kp => ins (fst kp) (snd kp, 0) m) (g_vals c)).
  intros m kp. apply length_ins_le.
Qed.

Lemma cgenesis_nonempty c : g_vals c <> [] -> cgenesis c <> [].
Proof.
  unfold cgenesis. destruct (g_vals c) as [|kp r]; [contradiction|]. intros _. cbn [fold_left].
  apply (fold_left_inv (fun m => m <> [])); intros; apply ins_nonempty.
Qed.

Lemma genesis_binv c : binv (genesis c) (cgenesis c).
Proof.
  split; [|split; [|split; [reflexivity|discriminate]]].
  - apply (fold_left_inv sorted (fun m kp => ins (fst kp) (snd kp, 0) m)); [|exact I].
    intros m kp. apply sorted_ins.
  - apply (fold_left_fusion proj). intros m kp. apply (mapv_ins fst).
Qed.

Lemma size_ok_genesis c bs :
  size_ok c bs -> N.of_nat (length (st_vals (genesis c)) + total_actions bs) < U64_MAX.
Proof. unfold size_ok. pose proof (genesis_length c). lia. Qed.

Theorem mirror : stmt_mirror.
Proof.
  intros c bs Hsz. destruct (run_blocks (genesis c) bs) as [st batches] eqn:E.
  destruct (run_blocks_ok bs _ _ _ _ (genesis_binv c) (size_ok_genesis c bs Hsz) E)
    as [(Hs & Hp & Hu & Hc) _].
  split; [symmetry; exact Hp|]. split; [exact Hc|exact Hu].
Qed.

Theorem applicable_outside_known : stmt_applicable_outside_known.
Proof.
  intros c bs Hne Hsz Hk. destruct (run_blocks (genesis c) bs) as [st batches] eqn:E.
  destruct (run_blocks_ok bs _ _ _ _ (genesis_binv c) (size_ok_genesis c bs Hsz) E)
    as [(Hs & Hp & Hu & Hc) Hstrict].
  rewrite <- proj_nil_iff, Hp.
  apply Hstrict; [apply cgenesis_nonempty, Hne|exact Hk].
Qed.

Theorem witness_a_refutes : refutes witness_a_config witness_a_blocks.
Proof.
  unfold refutes. split; [discriminate|]. split; [vm_compute; reflexivity|].
  split; vm_compute; reflexivity.
Qed.

Theorem witness_b_refutes : refutes witness_b_config witness_b_blocks.
Proof.
  unfold refutes. split; [discriminate|]. split; [vm_compute; reflexivity|].
  split; vm_compute; reflexivity.
Qed.

Theorem updates_applicable_refuted : ~ stmt_updates_applicable.
Proof.
  intros H. specialize (H witness_b_config witness_b_blocks).
  destruct witness_b_refutes as (Hne & Hsz & _ & Hnone).
  specialize (H Hne Hsz).
  destruct (run_blocks (genesis witness_b_config) witness_b_blocks) as [st batches].
  cbn [snd] in Hnone. contradiction.
Qed.

Lemma flat_map_nil {A B} (f : A -> list B) l :
  flat_map f l = [] -> forall x, In x l -> f x = [].
Proof.
  induction l as [|y r IH]; cbn [flat_map]; intros H x Hin.
  - destruct Hin.
  - apply app_eq_nil in H. destruct H as [H1 H2].
    destruct Hin as [->|Hin]; [exact H1|apply IH; assumption].
Qed.

Lemma constructible_spec st t :
  constructible st t =
  negb (t_nonce t <? nonce_of st (t_signer t)) && forallb (check_ok st (t_signer t)) (t_acts t).
Proof.
  unfold constructible, construct_errs.
  destruct (t_nonce t <? nonce_of st (t_signer t)); [reflexivity|]. cbn [negb andb].
  induction (t_acts t) as [|a r IH]; cbn [flat_map forallb]; [reflexivity|].
  unfold check_ok at 1. destruct (check st (t_signer t) a); cbn [app andb]; [exact IH|reflexivity].
Qed.

Lemma finalize_removals_checked st0 txs st st' rs :
  run_txs Finalize st0 st txs = (st', rs) -> Forall (rem_in (st_vals st0)) (succ_acts txs rs).
Proof.
  apply (run_txs_ind (fun _ l _ => Forall (rem_in (st_vals st0)) l)).
  - constructor.
  - intros _ l1 _ l2 _ H1 H2. apply Forall_app. split; assumption.
  - intros _ t _ _ Hc. specialize (Hc eq_refl). rewrite constructible_spec in Hc.
    apply andb_prop in Hc. destruct Hc as [_ Hc]. rewrite forallb_forall in Hc.
    apply Forall_forall. intros a Hin. exact (check_ok_removal _ _ _ (Hc a Hin)).
Qed.

Lemma finalize_block_not_class_a st b :
  b_mode b = Finalize -> block_class known_a st b = false.
Proof.
  intros Hmode. rewrite block_class_eq.
  destruct (run_block st b) as [[st' batch] rs] eqn:Eb. cbn [snd].
  destruct (run_block_inv _ _ _ _ _ Eb) as (st2 & Etx & _). rewrite Hmode in Etx.
  apply known_a_spec. intros _ k Hk. rewrite pre_exec_keys.
  exact (removals_present _ _ (finalize_removals_checked _ _ _ _ _ Etx) k Hk).
Qed.

Theorem finalize_never_class_a : stmt_finalize_never_class_a.
Proof.
  intros c bs. generalize (genesis c). induction bs as [|b r IH]; intros st Hall; cbn [hist_any].
  - reflexivity.
  - inversion Hall; subst. rewrite finalize_block_not_class_a by assumption. cbn [orb].
    apply IH. assumption.
Qed.

Lemma pre_exec_aspen st h :
  st_aspen st = true \/ st_aspen_h st = h -> st_aspen (pre_exec st h) = true.
Proof.
  unfold pre_exec. destruct (N.eqb_spec (st_aspen_h st) h); [reflexivity|].
  intros [H|H]; [exact H|contradiction].
Qed.

Lemma run_block_aspen st b :
  st_aspen (fst (fst (run_block st b))) = st_aspen (pre_exec st (st_height st + 1)).
Proof.
  destruct (run_block st b) as [[st' batch] rs] eqn:Eb.
  destruct (run_block_inv _ _ _ _ _ Eb) as (st2 & Etx & _ & ->).
  apply (run_txs_aspen _ _ _ _ _ _ Etx).
Qed.

(** Once Aspen is active, or activates at the next block, there is no class B block. *)
Lemma post_aspen_known bs : forall st,
  st_aspen st = true \/ st_aspen_h st = st_height st + 1 ->
  hist_any (block_class known_a) st bs = false -> hist_any block_known st bs = false.
Proof.
  induction bs as [|b r IH]; intros st Ho; cbn [hist_any]; [reflexivity|].
  intros Ha. apply orb_false_iff in Ha. destruct Ha as [Ha Har].
  pose proof (pre_exec_aspen st _ Ho) as Hasp.
  rewrite IH; [|left; rewrite run_block_aspen; exact Hasp|exact Har]. rewrite orb_false_r.
  unfold block_known. rewrite block_class_eq in *. rewrite Ha.
  unfold known_b. rewrite Hasp. reflexivity.
Qed.

Theorem applicable_post_aspen_finalize : stmt_applicable_post_aspen_finalize.
Proof.
  intros c bs Hne Hsz Hh Hall. apply applicable_outside_known; try assumption.
  apply post_aspen_known; [|apply finalize_never_class_a; exact Hall].
  right. cbn. rewrite Hh. reflexivity.
Qed.

Lemma check_ok_migrate st sg a :
  st_aspen st = false -> check_ok (migrate st) sg a = check_ok st sg a.
Proof.
  intros Ea. unfold check_ok, check. rewrite migrate_keys. cbn. rewrite Ea. cbn [negb].
  destruct (negb (sg =? st_sudo st)); [reflexivity|].
  destruct (a_power a =? 0); [|reflexivity].
  destruct (lookup (a_key a) (st_vals st)) as [v|] eqn:El; cbn [is_some negb].
  - assert (Hl : 1 <= vlen (st_vals st)).
    { unfold vlen. destruct (st_vals st); [discriminate|cbn [length]; lia]. }
    destruct (N.eqb_spec (vlen (st_vals st)) 1) as [E1|E1].
    + rewrite E1. reflexivity.
    + destruct (N.ltb_spec 1 (vlen (st_vals st))); [reflexivity|lia].
  - destruct (negb (1 <? vlen (st_vals st))); reflexivity.
Qed.

Theorem construct_at_migration : stmt_construct_at_migration.
Proof.
  intros st t Ea. rewrite !constructible_spec.
  f_equal. induction (t_acts t) as [|a r IH]; cbn [forallb]; [reflexivity|].
  rewrite IH. rewrite (check_ok_migrate st (t_signer t) a Ea). reflexivity.
Qed.

(** Across the migration (Aspen at height 3): additions, a removal, a change of power, a signer
    who is not sudo, remove-then-add in a proposer's block, a wrong nonce, an add-then-remove
    whose removal cannot be constructed. *)
Definition ex_cfg : config := mkConfig [(0, 10); (1, 10); (2, 10)] 0 3.
Definition ex_blocks : list block :=
  [ mkBlock Finalize [mkTx 0 0 [mkAction 5 7 1]];
    mkBlock Finalize [mkTx 0 1 [mkAction 1 0 0; mkAction 0 20 0]; mkTx 3 0 [mkAction 9 9 0]];
    mkBlock Finalize [mkTx 0 2 [mkAction 6 3 4]];
    mkBlock Propose  [mkTx 0 3 [mkAction 5 0 0]; mkTx 0 4 [mkAction 5 9 2]; mkTx 0 9 [mkAction 2 0 0]];
    mkBlock Finalize [mkTx 0 5 [mkAction 7 1 0]; mkTx 0 6 [mkAction 7 0 0]] ].

Example ex_hypotheses :
  g_vals ex_cfg <> [] /\ size_ok ex_cfg ex_blocks /\
  hist_any block_known (genesis ex_cfg) ex_blocks = false.
Proof. split; [discriminate|]. split; vm_compute; reflexivity. Qed.

Example ex_run :
  snd (run_blocks (genesis ex_cfg) ex_blocks) =
    [[(5, 7)]; [(0, 20); (1, 0)]; [(6, 3)]; [(5, 9)]; [(7, 1)]] /\
  st_vals (fst (run_blocks (genesis ex_cfg) ex_blocks)) =
    [(0, (20, 0)); (2, (10, 0)); (5, (9, 2)); (6, (3, 4)); (7, (1, 0))] /\
  st_count (fst (run_blocks (genesis ex_cfg) ex_blocks)) = Some 5 /\
  fold_strict (cgenesis ex_cfg) (snd (run_blocks (genesis ex_cfg) ex_blocks)) =
    Some [(0, 20); (2, 10); (5, 9); (6, 3); (7, 1)].
Proof. repeat split; vm_compute; reflexivity. Qed.

(** Post-Aspen, finalize path: a key added in a block cannot be removed in it. *)
Definition ex2_cfg : config := mkConfig [(0, 10); (1, 10)] 0 1.
Definition ex2_blocks : list block :=
  [ mkBlock Finalize [];
    mkBlock Finalize [mkTx 0 0 [mkAction 7 5 0]; mkTx 0 1 [mkAction 7 0 0]];
    mkBlock Finalize [mkTx 0 1 [mkAction 7 0 0; mkAction 1 0 0]; mkTx 0 2 [mkAction 0 0 0]] ].

Example ex2_hypotheses :
  g_vals ex2_cfg <> [] /\ size_ok ex2_cfg ex2_blocks /\ g_aspen_h ex2_cfg = 1 /\ all_finalize ex2_blocks.
Proof.
  split; [discriminate|]. split; [vm_compute; reflexivity|]. split; [reflexivity|].
  repeat constructor.
Qed.

Example ex2_run :
  snd (run_block (fst (fst (run_block (genesis ex2_cfg) (mkBlock Finalize []))))
                 (mkBlock Finalize [mkTx 0 0 [mkAction 7 5 0]; mkTx 0 1 [mkAction 7 0 0]])) =
    [ROk; RConstructErr [EMissing]] /\
  snd (run_blocks (genesis ex2_cfg) ex2_blocks) = [[]; [(7, 5)]; [(1, 0); (7, 0)]] /\
  st_vals (fst (run_blocks (genesis ex2_cfg) ex2_blocks)) = [(0, (10, 0))] /\
  fold_strict (cgenesis ex2_cfg) (snd (run_blocks (genesis ex2_cfg) ex2_blocks)) = Some [(0, 10)].
Proof. repeat split; vm_compute; reflexivity. Qed.

(** Same verdict, different errors: removing an unknown key from a one-validator set. *)
Example ex_construct_at_migration :
  let st := genesis (mkConfig [(0, 10)] 0 1) in
  let t := mkTx 0 0 [mkAction 4 0 0] in
  st_aspen st = false /\
  construct_errs st t = [EMissing] /\ construct_errs (migrate st) t = [EOnly] /\
  constructible (migrate st) t = constructible st t.
Proof. repeat split; vm_compute; reflexivity. Qed.
