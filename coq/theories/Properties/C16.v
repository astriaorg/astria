(** C16 — pinned statements only. *)
From Astria Require Import Bundle.BundleModel Bundle.BundleProofs.

Theorem C16_fifo_exactly_once : forall mx cap ops,
  2 * mx <= U64_MAX ->
  let '(s', outs) := run (init mx cap) ops in
  emitted outs ++ pending s' = accepted ops outs.
Proof. exact fifo_exactly_once. Qed.
Print Assumptions C16_fifo_exactly_once.

Theorem C16_emitted_within_limit : forall mx cap ops,
  2 * mx <= U64_MAX ->
  let '(_, outs) := run (init mx cap) ops in
  forall b, In (OBundle b) outs -> true_size b <= mx /\ b_size b = true_size b.
Proof. exact emitted_within_limit. Qed.
Print Assumptions C16_emitted_within_limit.

Theorem C16_refusal_exact : forall s id sz,
  2 * maxb s <= U64_MAX -> Inv s ->
  let '(s', x) := step s (Push id sz) in
  (x = OTooLarge <-> maxb s < sz) /\
  (x = OQueueFull <-> (sz <= maxb s /\ maxb s < true_size (cur s) + sz /\ capq s <= lenN (fin s))) /\
  (x = OOk \/ x = OTooLarge \/ x = OQueueFull) /\
  (x <> OOk -> s' = s).
Proof. exact refusal_exact. Qed.
Print Assumptions C16_refusal_exact.

Theorem C16_finished_within_capacity : forall mx cap ops,
  2 * mx <= U64_MAX ->
  let '(s', _) := run (init mx cap) ops in lenN (fin s') <= cap.
Proof. exact finished_within_capacity. Qed.
Print Assumptions C16_finished_within_capacity.

(** Every reachable state satisfies [Inv] (so C16_refusal_exact's hypothesis is met). *)
Theorem C16_reachable_inv : forall mx cap ops,
  2 * mx <= U64_MAX -> Inv (fst (run (init mx cap) ops)).
Proof.
  intros mx cap ops Hmx. pose proof (run_wf ops (init mx cap) Hmx (Inv_init mx cap)) as H.
  destruct (run (init mx cap) ops) as [s' outs]. exact (proj1 H).
Qed.
Print Assumptions C16_reachable_inv.
