(** C13 — pinned statements only.  Model: Mempool/MempoolModel.v (the code after the repairs
    05018e5 and ae54eb4); vocabulary and ghost bookkeeping (what the mempool has accepted /
    has been shown): Mempool/MempoolSpec.v; the pre-repair definitions: Mempool/MempoolPrefix.v. *)
From Astria Require Import Mempool.MempoolSpec Mempool.MempoolPrefix Mempool.MempoolOnePlace
  Mempool.MempoolLight3 Mempool.MempoolQueue Mempool.MempoolWitness.

(** Every accepted transaction that has not yet been reported to its submitter as removed has a
    place (pending, parked, or removed with a reason); the place reported by transaction_status is
    where the transaction is held; no id is held twice.  No exception, no hypothesis on nonces. *)
Theorem C13_one_place : forall pmax k na ops,
  let '(s, g) := grun (init pmax k na) ghost0 ops in
  (forall id, In id (g_live g) -> tx_status (s_universe s) (s_pool s) id <> None) /\
  (forall id, place_consistent s id) /\
  (forall id, (occurrences (s_universe s) (s_pool s) id <= 1)%nat).
Proof. exact one_place. Qed.
Print Assumptions C13_one_place.

Theorem C13_ready_consecutive : forall pmax k na ops,
  let '(s, g) := grun (init pmax k na) ghost0 ops in
  forall a, gapfree (p_pending (s_pool s) a) (g_shown_nonce g a) /\
            run_from (p_pending (s_pool s) a) (g_shown_nonce g a) /\
            g_shown_nonce g a <= c_nonce (s_chain s) a.
Proof. exact ready_consecutive. Qed.
Print Assumptions C13_ready_consecutive.

(** the literal reading (stale entries count as ready) is false; not a defect *)
Theorem C13_ready_consecutive_literal_refuted :
  ~ (forall pmax k na ops,
     let s := fst (run (init pmax k na) ops) in
     forall a n m j, has_nonce (p_pending (s_pool s) a) n = true ->
                     has_nonce (p_pending (s_pool s) a) m = true ->
                     n <= j -> j <= m -> has_nonce (p_pending (s_pool s) a) j = true).
Proof. exact ready_consecutive_literal_refuted. Qed.
Print Assumptions C13_ready_consecutive_literal_refuted.

Theorem C13_ready_affordable : forall pmax k na ops,
  let '(s, g) := grun (init pmax k na) ghost0 ops in
  forall a asset, total_cost (p_pending (s_pool s) a) asset <= g_shown_bal g a asset.
Proof. exact ready_affordable. Qed.
Print Assumptions C13_ready_affordable.

Theorem C13_queue_order : forall pmax k na ops,
  let s := fst (run (init pmax k na) ops) in
  let q := builder_queue (s_universe s) (s_pool s) in
  NoDup q /\
  forall a e1 e2, In a (s_universe s) ->
    In e1 (p_pending (s_pool s) a) -> In e2 (p_pending (s_pool s) a) ->
    t_group (e_tx e1) = t_group (e_tx e2) -> e_nonce e1 < e_nonce e2 ->
    before_in (e_id e1) (e_id e2) q.
Proof. exact queue_order. Qed.
Print Assumptions C13_queue_order.

Theorem C13_after_maintenance_no_stale : forall pmax k na ops recost h ids,
  let s := fst (run (init pmax k na) (ops ++ [OpMaint recost h ids])) in
  forall a e, In e (p_pending (s_pool s) a) \/ In e (p_parked (s_pool s) a) ->
  c_nonce (s_chain s) a <= e_nonce e.
Proof. exact after_maintenance_no_stale. Qed.
Print Assumptions C13_after_maintenance_no_stale.

Theorem C13_parked_limits : forall pmax k na ops,
  let s := fst (run (init pmax k na) ops) in
  parked_len (s_universe s) (p_parked (s_pool s)) <= pmax /\
  forall a, llen (p_parked (s_pool s) a) <= MAX_PARKED_PER_ACCOUNT.
Proof. exact parked_limits. Qed.
Print Assumptions C13_parked_limits.

(** The two repaired defects, stated about the PRE-FIX definitions ([run_maintenance_prefix],
    [insert_pending_prefix] of MempoolPrefix.v). *)
Theorem C13_f12_prefix_lost :
  let s := fst (run (init 1 1 1) (removelast f12_ops)) in
  let p' := run_maintenance_prefix (s_universe s) (s_pmax s) (s_chain s) (s_pool s) false [] 3 in
  tx_status (s_universe s) (s_pool s) 3 = Some SPending /\
  tx_status (s_universe s) p' 3 = None /\
  map e_id (p_pending p' 0) = [1] /\ map e_id (p_parked p' 0) = [2] /\ p_rcache p' = [].
Proof. exact f12_prefix_lost. Qed.
Print Assumptions C13_f12_prefix_lost.

Theorem C13_nonce_max_prefix_panics :
  let s := fst (run (init 4 1 1) (removelast nonce_max_ops)) in
  match insert_pending_prefix (s_pool s) (tr 1 0 U32_MAX 1) U32_MAX (c_bal (s_chain s) 0) [(0, 1)] with
  | Some (p', None) =>
      builder_queue (s_universe s) p' = [1] /\ tx_status (s_universe s) p' 1 = None
  | _ => False
  end.
Proof. exact nonce_max_prefix_panics. Qed.
Print Assumptions C13_nonce_max_prefix_panics.
