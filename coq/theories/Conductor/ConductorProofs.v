(** C10 — proofs, layer 1: the executor under arbitrary admitted deliveries.
    The invariant has a trace part, kept by every state, and a part for live states that reads
    the trace only through [eexecs] and [last_commit].  Each executor function is walked through
    once; the walk ends in a [Post]: the invariant plus what layer 2 needs. *)
From Astria Require Import Conductor.ConductorSpec Conductor.ConductorArith.

Lemma every_nil (Q : event -> list event -> Prop) : every Q [].
Proof. intros l e r H. destruct l; discriminate. Qed.

Lemma every_cons (Q : event -> list event -> Prop) e tr :
  every Q (e :: tr) <-> Q e tr /\ every Q tr.
Proof.
  split.
  - intros H. split; [exact (H [] e tr eq_refl)|].
    intros l e' r E. apply (H (e :: l) e' r). cbn. now rewrite E.
  - intros [He Ht] l e' r H. destruct l as [|x l]; inversion H; subst; [exact He|].
    exact (Ht l e' r eq_refl).
Qed.

Lemma every_tail (Q : event -> list event -> Prop) e tr : every Q (e :: tr) -> every Q tr.
Proof. intros H. apply every_cons in H. apply H. Qed.

Lemma every_head (Q : event -> list event -> Prop) e tr : every Q (e :: tr) -> Q e tr.
Proof. intros H. apply every_cons in H. apply H. Qed.

Lemma every_impl (Q Q' : event -> list event -> Prop) tr :
  (forall e r, Q e r -> Q' e r) -> every Q tr -> every Q' tr.
Proof. intros Imp H l e r E. apply Imp, (H l e r E). Qed.

Definition hnum (h : bhash) : N := match h with HGen n => n | HExec n _ _ => n end.
Definition hwf (m : meta) : Prop := hnum (m_hash m) = m_num m.

Lemma bhash_eqb_eq a b : bhash_eqb a b = true -> a = b.
Proof.
  destruct a, b; cbn; try discriminate.
  - intros H. apply N.eqb_eq in H. now subst.
  - intros H. apply andb_true_iff in H as [H H3]. apply andb_true_iff in H as [H1 H2].
    apply N.eqb_eq in H1, H2, H3. now subst.
Qed.

Lemma bhash_eqb_refl a : bhash_eqb a a = true.
Proof. destruct a; cbn; rewrite ?N.eqb_refl; reflexivity. Qed.

Lemma meta_eq m m' : m_num m = m_num m' -> m_hash m = m_hash m' -> m = m'.
Proof. destruct m, m'; cbn; intros; subst; reflexivity. Qed.

(** executed blocks of a trace, newest first *)
Fixpoint emetas (tr : list event) : list meta :=
  match tr with
  | [] => []
  | EvExec _ _ (Some m) :: r => m :: emetas r
  | _ :: r => emetas r
  end.

(** with the heights: all that the live invariant reads of the ExecuteBlock calls, so that
    events of other kinds preserve it by conversion *)
Fixpoint eexecs (tr : list event) : list (N * meta) :=
  match tr with
  | [] => []
  | EvExec _ h (Some m) :: r => (h, m) :: eexecs r
  | _ :: r => eexecs r
  end.

Lemma emetas_eexecs tr : emetas tr = map snd (eexecs tr).
Proof.
  induction tr as [|e tr IH]; cbn; [reflexivity|].
  destruct e as [| | ? ? [?|] | |]; cbn; now rewrite ?IH.
Qed.

Lemma last_exec_eexecs tr : last_exec tr = hd_error (eexecs tr).
Proof.
  induction tr as [|e tr IH]; cbn; [reflexivity|].
  destruct e as [| | ? ? [?|] | |]; cbn; now rewrite ?IH.
Qed.

Lemma in_eexecs h m tr : In (h, m) (eexecs tr) -> exists p, In (EvExec p h (Some m)) tr.
Proof.
  induction tr as [|e tr IH]; cbn; [tauto|].
  destruct e as [| | p h' [m'|] | |]; cbn; try (intros H; destruct (IH H); eauto).
  intros [[= -> ->]|H]; [eauto|]. destruct (IH H). eauto.
Qed.

Lemma last_exec_None tr : last_exec tr = None <-> emetas tr = [].
Proof.
  rewrite last_exec_eexecs, emetas_eexecs. destruct (eexecs tr); cbn; split; (reflexivity || discriminate).
Qed.

Lemma find_hash_hnum (r : rollup) (h : bhash) n :
  (forall m, In m (r_exec r) -> hwf m) -> r_find_hash r h = Some n -> n = hnum h.
Proof.
  intros W. unfold r_find_hash.
  destruct (find _ (r_exec r)) as [m|] eqn:F.
  - apply find_some in F as [Hin He]. apply bhash_eqb_eq in He. intros H; inversion H; subst.
    now rewrite <- (W m Hin).
  - destruct h; [|discriminate]. cbn. destruct (n0 <=? r_presoft r); [|discriminate].
    intros H; now inversion H.
Qed.

Lemma next_of_fun ss rs a v w : next_of ss rs a = Some v -> next_of ss rs a = Some w -> v = w.
Proof. congruence. Qed.

Lemma start_height_eq x :
  start_height x = next_of (x_sstart x) (x_rstart x) (m_num (head_meta x)).
Proof. unfold start_height, head_meta, nextf, nexts. destruct (x_mode x); reflexivity. Qed.

Lemma head_soft x : x_mode x <> FirmOnly -> head_meta x = x_soft x.
Proof. unfold head_meta. destruct (x_mode x); congruence. Qed.

(** trace part: holds in every reachable state, live or not *)
Definition Qall (x0 : exec) (e : event) (earlier : list event) : Prop :=
  Qexec x0 e earlier /\ (~ firm_only_soft_lead x0 -> Qmono x0 e earlier) /\
  Qle e earlier /\ Qnames x0 e earlier.

Definition TrInv (x0 : exec) : list event -> Prop := every (Qall x0).

Set Implicit Arguments.
Unset Strict Implicit.

Record Roll (x0 : exec) (r : rollup) (ex : list (N * meta)) : Prop := {
  ro_exec : r_exec r = map snd ex;
  ro_pre : r_presoft r = m_num (x_soft x0);
  ro_fault : r_fault r = None;
  ro_wf : forall m, In m (r_exec r) -> hwf m
}.

Fixpoint chain (x0 : exec) (base : meta) (ex : list (N * meta)) (top : meta) : Prop :=
  match ex with
  | [] => top = base
  | (h, m) :: r =>
      top = m /\ s2r (x_sstart x0) (x_rstart x0) h = Some (m_num m) /\
      exists prev, m_num m = m_num prev + 1 /\ chain x0 base r prev
  end.

Lemma chain_range x0 base ex top :
  chain x0 base ex top ->
  m_num base <= m_num top /\ (m_num top <= m_num base -> top = base) /\
  forall h m, In (h, m) ex ->
    m_num base < m_num m <= m_num top /\ (m_num m = m_num top -> m = top) /\
    s2r (x_sstart x0) (x_rstart x0) h = Some (m_num m).
Proof.
  revert top. induction ex as [|[h' m'] ex IH]; cbn; intros top.
  - intros ->. split; [lia|]. split; [reflexivity|]. intros h m [].
  - intros (-> & Sr & prev & Hn & C). destruct (IH prev C) as (Ge & _ & Rg).
    split; [lia|]. split; [intros; lia|]. intros h m [[= -> ->]|Hin]; [repeat split; auto; lia|].
    destruct (Rg h m Hin) as (R1 & _ & R3). split; [lia|]. split; [intros; lia|exact R3].
Qed.

Record SoftInv (x : exec) (ex : list (N * meta)) : Prop := {
  (* a firm block that finds firm level with soft is executed on firm *)
  si_same : m_num (x_firm x) = m_num (x_soft x) -> x_firm x = x_soft x;
  si_pend : forall k m, c_find k (x_pend x) = Some m -> m_num m = k /\ exists h, In (h, m) ex;
  si_pend_all : forall h m, In (h, m) ex -> m_num (x_firm x) < m_num m ->
      c_find (m_num m) (x_pend x) = Some m
}.

Record XInv (x0 x : exec) (ex : list (N * meta)) : Prop := {
  xi_mode : x_mode x = x_mode x0;
  xi_ss : x_sstart x = x_sstart x0;
  xi_rs : x_rstart x = x_rstart x0;
  xi_le : m_num (x_firm x) <= m_num (x_soft x);
  (* ExecuteBlock numbers its result from the parent's hash, the contract check from its number *)
  xi_wff : hwf (x_firm x);
  xi_wfs : hwf (x_soft x);
  xi_chain : chain x0 (head_meta x0) ex (head_meta x);
  (* FirmOnly sets soft := firm at each execution; before the first one soft may be ahead *)
  xi_head : ~ firm_only_soft_lead x0 -> m_num (x_soft x) <= m_num (head_meta x);
  xi_soft : x_mode x0 <> FirmOnly -> SoftInv x ex
}.

Lemma soft_chain x0 x ex :
  x_mode x0 <> FirmOnly -> XInv x0 x ex -> chain x0 (x_soft x0) ex (x_soft x).
Proof.
  intros Md X. rewrite <- (head_soft x0 Md), <- (head_soft x) by (now rewrite (xi_mode X)). apply X.
Qed.

Record Live (x0 : exec) (s : xs) : Prop := {
  li_sync : last_commit x0 (xt s) = (x_firm (xe s), x_soft (xe s));
  li_roll : Roll x0 (xr s) (eexecs (xt s));
  li_x : XInv x0 (xe s) (eexecs (xt s))
}.

Record Inv (x0 : exec) (s : xs) : Prop := {
  inv_tr : TrInv x0 (xt s);
  (* the two errors that T3 excludes *)
  inv_err : xd s <> Some EFirmGtSoft /\ xd s <> Some EContractWrong;
  inv_live : xd s = None -> Live x0 s
}.

Unset Implicit Arguments.
Set Strict Implicit.

Record Start (x0 : exec) : Prop := {
  st_pend : x_pend x0 = [];
  st_firm : m_hash (x_firm x0) = HGen (m_num (x_firm x0));
  st_soft : m_hash (x_soft x0) = HGen (m_num (x_soft x0));
  st_le : m_num (x_firm x0) <= m_num (x_soft x0)
}.

Lemma session_start x0 : session x0 -> Start x0.
Proof.
  intros (md & ss & rs & lk & f & so & b & H). unfold session_exec in H.
  destruct (_ || _) eqn:E1; [discriminate|]. apply orb_false_iff in E1 as [_ E1].
  destruct (negb _); [discriminate|]. destruct (match md with SoftAndFirm => _ | _ => _ end); [discriminate|].
  inversion H; subst; clear H. constructor; cbn; try reflexivity. apply N.ltb_ge, E1.
Qed.

Lemma inv_init x0 : Start x0 -> Inv x0 (xs_of x0).
Proof.
  intros St. constructor; cbn; [apply every_nil|split; discriminate|].
  intros _. constructor; cbn; [reflexivity|constructor; cbn; tauto|].
  constructor; cbn; try reflexivity.
  - apply St.
  - unfold hwf. now rewrite (st_firm _ St).
  - unfold hwf. now rewrite (st_soft _ St).
  - intros NL. unfold head_meta. destruct (x_mode x0) eqn:Md; try lia.
    apply N.le_ngt. intros Q. apply NL. split; assumption.
  - intros _. constructor; cbn; [| |tauto].
    + intros E. apply meta_eq; [exact E|]. now rewrite (st_firm _ St), (st_soft _ St), E.
    + rewrite (st_pend _ St). discriminate.
Qed.

Definition silent (e : event) : Prop :=
  match e with EvExec _ _ _ | EvUpdate _ _ _ => False | _ => True end.

Lemma tr_silent x0 e tr : silent e -> TrInv x0 tr -> TrInv x0 (e :: tr).
Proof.
  intros S T. apply every_cons. split; [|exact T]. destruct e; try contradiction; repeat split.
Qed.

Lemma inv_silent x0 s e :
  silent e -> Inv x0 s -> xd s = None ->
  Inv x0 {| xe := xe s; xr := xr s; xt := e :: xt s; xd := None |}.
Proof.
  intros S I D. destruct (inv_live I D) as [Sy R X].
  constructor; cbn; [apply tr_silent; [exact S|apply I]|split; discriminate|].
  intros _. destruct e; try contradiction; constructor; assumption.
Qed.

Lemma Qexec_tip x0 x tr h res :
  XInv x0 x (eexecs tr) -> start_height x = Some h ->
  Qexec x0 (EvExec (m_hash (head_meta x)) h res) tr.
Proof.
  intros X Sh. cbn. rewrite last_exec_eexecs. pose proof (xi_chain X) as C.
  rewrite start_height_eq, (xi_ss X), (xi_rs X) in Sh.
  destruct (eexecs tr) as [|[h' m'] ex]; cbn in *.
  - rewrite start_height_eq, <- C. auto.
  - destruct C as (C & Sr & _). rewrite C in *. split; [reflexivity|]. now apply (next_after _ _ _ _ _ Sh).
Qed.

Lemma rollup_exec_spec r parent h r' res :
  r_fault r = None -> (forall m, In m (r_exec r) -> hwf m) ->
  rollup_exec r parent h = (r', res) ->
  r_presoft r' = r_presoft r /\ r_fault r' = None /\
  match res with
  | None => r_exec r' = r_exec r
  | Some m => r_exec r' = m :: r_exec r /\ m_num m = hnum parent + 1 /\ hwf m
  end.
Proof.
  intros F W. unfold rollup_exec. rewrite F.
  destruct (r_find_hash r parent) as [n|] eqn:E; cbn.
  - apply find_hash_hnum in E; [|exact W]. subst n.
    unfold checked_add. destruct (hnum parent + 1 <=? U64_MAX) eqn:E1; cbn.
    + rewrite N.add_0_r, E1. intros H; inversion H; subst; cbn; repeat split; reflexivity.
    + intros H; inversion H; subst; cbn; repeat split; reflexivity.
  - intros H; inversion H; subst; cbn; repeat split; reflexivity.
Qed.

Lemma update_commitment_cases s f so b lvl :
  let s' := update_commitment s f so b lvl in
  (m_num so < m_num f /\ s' = die s EFirmGtSoft) \/
  (m_num f <= m_num so /\ xt s' = EvUpdate f so b :: xt s /\ xr s' = xr s /\
   ((xd s' = None /\ xe s' = set_commit (xe s) f so b) \/
    (xd s' = Some EInvalidState /\ xe s' = xe s))).
Proof.
  unfold update_commitment. destruct (N.ltb_spec (m_num so) (m_num f)) as [L|L]; [left; split; [lia|reflexivity]|].
  right. split; [assumption|]. destruct (_ && _); cbn; auto.
Qed.

Lemma exec_and_check_cases s parent cur h s' om :
  exec_and_check s parent cur h = (s', om) ->
  exists r' res, rollup_exec (xr s) parent h = (r', res) /\
    xt s' = EvExec parent h res :: xt s /\ xr s' = r' /\ xe s' = xe s /\
    match om with
    | Some m => res = Some m /\ xd s' = None /\ m_num m = cur + 1
    | None => xd s' = Some ERpc \/ xd s' = Some EContractMax \/
              (xd s' = Some EContractWrong /\ exists m, res = Some m /\ m_num m <> cur + 1)
    end.
Proof.
  unfold exec_and_check. destruct (rollup_exec (xr s) parent h) as [r' res] eqn:E. intros H0.
  exists r', res. split; [reflexivity|]. revert H0.
  destruct res as [m|].
  - unfold checked_add. destruct (cur + 1 <=? U64_MAX).
    + destruct (N.eqb_spec (m_num m) (cur + 1)) as [Q|Q]; intros H0; inversion H0; subst; cbn; repeat split; auto.
      right; right. split; [reflexivity|]. exists m. auto.
    + intros H0; inversion H0; subst; cbn; repeat split; auto.
  - intros H0; inversion H0; subst; cbn; repeat split; auto.
Qed.

Lemma c_find_remove_same {A} k (l : list (N * A)) : c_find k (c_remove k l) = None.
Proof.
  induction l as [|[k' a] l IH]; cbn; [reflexivity|].
  destruct (N.eqb_spec k' k); [exact IH|]. cbn. destruct (N.eqb_spec k' k); [contradiction|exact IH].
Qed.

Lemma c_find_remove_other {A} k k' (l : list (N * A)) : k <> k' -> c_find k (c_remove k' l) = c_find k l.
Proof.
  intros D. induction l as [|[k2 a] l IH]; cbn; [reflexivity|].
  destruct (N.eqb_spec k2 k').
  - subst. destruct (N.eqb_spec k' k); [congruence|exact IH].
  - cbn. destruct (N.eqb_spec k2 k); [reflexivity|exact IH].
Qed.

Lemma c_remove_absent {A} k (l : list (N * A)) : c_find k l = None -> c_remove k l = l.
Proof.
  induction l as [|[k' a] l IH]; cbn; [reflexivity|].
  destruct (k' =? k); [discriminate|]. intros H. now rewrite IH.
Qed.

(** the errors that no statement of ConductorSpec speaks of *)
Definition harmless (e : xerr) : Prop :=
  match e with EPanic | EMap | ERpc | EContractMax | EInvalidState => True | _ => False end.

Lemma find_num_unexecuted x0 r ex n :
  Roll x0 r ex -> (forall m, In m (map snd ex) -> m_num m <> n) ->
  r_find_num r n = if n <=? m_num (x_soft x0) then Some (HGen n) else None.
Proof.
  intros R Hn. unfold r_find_num. rewrite (ro_pre R).
  destruct (find (fun m => m_num m =? n) (r_exec r)) as [m|] eqn:F; [|reflexivity].
  apply find_some in F as [Hin He]. apply N.eqb_eq in He. rewrite (ro_exec R) in Hin.
  now destruct (Hn m Hin).
Qed.

(** [special]: the error that witnesses a delivery at an unexpected height; [live]: how the
    expected heights have moved.  Both are for the channel invariant of layer 2. *)
Record Post (x0 : exec) (s' : xs) (special : xerr -> Prop) (live : exec -> Prop) : Prop := {
  po_inv : Inv x0 s';
  po_err : forall e, xd s' = Some e -> harmless e \/ special e;
  po_live : xd s' = None -> live (xe s')
}.

Lemma post_dead x0 s' e (special : xerr -> Prop) live :
  TrInv x0 (xt s') -> xd s' = Some e -> e <> EFirmGtSoft -> e <> EContractWrong ->
  harmless e \/ special e -> Post x0 s' special live.
Proof.
  intros T D E1 E2 H. constructor.
  - constructor; [exact T|rewrite D; split; congruence|rewrite D; discriminate].
  - intros e' D'. congruence.
  - rewrite D. discriminate.
Qed.

Lemma post_harmless x0 s' e special live :
  TrInv x0 (xt s') -> xd s' = Some e -> harmless e -> Post x0 s' special live.
Proof. intros T D H. apply post_dead with e; auto; intros ->; exact H. Qed.

Lemma post_live x0 s' special (live : exec -> Prop) :
  Inv x0 s' -> xd s' = None -> live (xe s') -> Post x0 s' special live.
Proof. intros I D L. constructor; [exact I|rewrite D; discriminate|intros _; exact L]. Qed.

Lemma exec_head_post x0 s h bn (k : xs -> meta -> xs) special live :
  Inv x0 s -> xd s = None -> start_height (xe s) = Some h ->
  s2r (x_sstart (xe s)) (x_rstart (xe s)) h = Some bn ->
  (forall m r', m_num m = m_num (head_meta (xe s)) + 1 -> bn = m_num m -> hwf m ->
     Roll x0 r' ((h, m) :: eexecs (xt s)) ->
     let s1 := {| xe := xe s; xr := r'; xd := None;
                  xt := EvExec (m_hash (head_meta (xe s))) h (Some m) :: xt s |} in
     TrInv x0 (xt s1) -> Post x0 (k s1 m) special live) ->
  Post x0 (match exec_and_check s (m_hash (head_meta (xe s))) (m_num (head_meta (xe s))) h with
           | (s1, None) => s1
           | (s1, Some m) => k s1 m
           end) special live.
Proof.
  intros I D Sh Sr K. destruct (inv_live I D) as [_ R X].
  destruct (exec_and_check s _ _ h) as [s' om] eqn:EC.
  apply exec_and_check_cases in EC as (r' & res & RE & Xt & Xr & Xe & Hom).
  apply rollup_exec_spec in RE as (Rp & Rf & Rres); [|apply R|apply R].
  assert (T : TrInv x0 (xt s')).
  { rewrite Xt. apply every_cons. split; [split; [now apply Qexec_tip|repeat split]|apply I]. }
  destruct om as [m|].
  - destruct Hom as (-> & D' & Hn). destruct Rres as (Rex & _ & Wm).
    assert (E : s' = {| xe := xe s; xr := r'; xd := None;
                        xt := EvExec (m_hash (head_meta (xe s))) h (Some m) :: xt s |})
      by (destruct s'; cbn in *; now subst).
    rewrite E in *. apply K; [exact Hn| |exact Wm| |exact T].
    + rewrite Hn. rewrite start_height_eq in Sh. eapply s2r_next; [exact Sh|exact Sr].
    + constructor; cbn; [now rewrite Rex, (ro_exec R)|now rewrite Rp, (ro_pre R)|exact Rf|].
      rewrite Rex. intros m' [<-|Hm]; [exact Wm|apply (ro_wf R), Hm].
  - destruct Hom as [D'|[D'|(D' & m & -> & Ne)]];
      [now apply post_harmless with ERpc|now apply post_harmless with EContractMax|].
    (* a wrong number would contradict [hwf] of the head *)
    destruct Rres as (_ & Rn & _). destruct Ne. rewrite Rn. f_equal.
    unfold head_meta. destruct (x_mode (xe s)); apply X.
Qed.

Lemma update_cases x0 s f so b lvl :
  TrInv x0 (xt s) -> m_num f <= m_num so ->
  (~ firm_only_soft_lead x0 -> Qmono x0 (EvUpdate f so b) (xt s)) ->
  Qnames x0 (EvUpdate f so b) (xt s) ->
  TrInv x0 (xt (update_commitment s f so b lvl)) /\
  (xd (update_commitment s f so b lvl) = Some EInvalidState \/
   update_commitment s f so b lvl =
     {| xe := set_commit (xe s) f so b; xr := xr s; xt := EvUpdate f so b :: xt s; xd := None |}).
Proof.
  intros T Le Q1 Q3.
  destruct (update_commitment_cases s f so b lvl) as [[Bad _]|(_ & Xt & Xr & Alt)]; [lia|].
  split; [rewrite Xt; apply every_cons; split; [split; [exact Logic.I|auto]|exact T]|].
  destruct Alt as [[D Xe]|[D _]]; [right|now left].
  destruct (update_commitment s f so b lvl); cbn in *; now subst.
Qed.

Lemma xinv_exec_soft x0 x ex h m b :
  x_mode x0 <> FirmOnly -> XInv x0 x ex ->
  s2r (x_sstart x) (x_rstart x) h = Some (m_num m) -> m_num m = m_num (x_soft x) + 1 -> hwf m ->
  XInv x0 (set_pend (set_commit x (x_firm x) m b) ((m_num m, m) :: c_remove (m_num m) (x_pend x)))
       ((h, m) :: ex).
Proof.
  intros Md X Sr Hn Wm. pose proof (xi_soft X Md) as SI. pose proof (xi_le X) as Le.
  pose proof (xi_chain X) as C. destruct (chain_range (soft_chain Md X)) as (_ & _ & Rg).
  assert (Hd : forall y, x_mode y = x_mode x -> head_meta y = x_soft y).
  { intros y My. apply head_soft. rewrite My, (xi_mode X). exact Md. }
  rewrite (Hd x eq_refl) in C.
  constructor; cbn; [apply X|apply X|apply X|lia|apply X|exact Wm| | |].
  - split; [now apply Hd|]. rewrite <- (xi_ss X), <- (xi_rs X). eauto.
  - intros _. rewrite Hd by reflexivity. cbn. lia.
  - intros _. constructor; cbn.
    + intros; lia.
    + intros k m0. destruct (N.eqb_spec (m_num m) k) as [<-|Dk].
      * intros [= <-]. split; [reflexivity|]. exists h. now left.
      * rewrite c_find_remove_other by congruence. intros Hk.
        destruct (si_pend SI Hk) as (Q1 & h' & Q2). eauto.
    + intros h' m' [[= <- <-]|Hin] Hf; [now rewrite N.eqb_refl|].
      destruct (Rg h' m' Hin) as (R1 & _). destruct (N.eqb_spec (m_num m) (m_num m')); [lia|].
      rewrite c_find_remove_other by congruence. now apply (si_pend_all SI Hin).
Qed.

(** the head block is firm: always in FirmOnly, in SoftAndFirm when soft is not ahead *)
Lemma xinv_exec_firm x0 x ex h m c :
  XInv x0 x ex -> head_meta x = x_firm x ->
  s2r (x_sstart x) (x_rstart x) h = Some (m_num m) -> m_num m = m_num (x_firm x) + 1 -> hwf m ->
  XInv x0 (set_commit x m m c) ((h, m) :: ex).
Proof.
  intros X Hh Sr Hn Wm. pose proof (xi_le X) as Le.
  pose proof (xi_chain X) as C. rewrite Hh in C. destruct (chain_range C) as (_ & _ & Rg).
  assert (Hd : head_meta (set_commit x m m c) = m) by (unfold head_meta; cbn; now destruct (x_mode x)).
  constructor; cbn; [apply X|apply X|apply X|lia|exact Wm|exact Wm| | |].
  - split; [exact Hd|]. rewrite <- (xi_ss X), <- (xi_rs X). eauto.
  - intros _. rewrite Hd. lia.
  - intros Md. pose proof (xi_soft X Md) as SI. constructor; cbn.
    + reflexivity.
    + intros k m0 Hk. destruct (si_pend SI Hk) as (Q1 & h' & Q2). eauto.
    + intros h' m' [[= <- <-]|Hin] Hf; [lia|]. destruct (Rg h' m' Hin). lia.
Qed.

Lemma xinv_firm_move x0 x ex b c :
  x_mode x0 <> FirmOnly -> XInv x0 x ex ->
  m_num (x_firm x) < m_num b <= m_num (x_soft x) -> hwf b ->
  (m_num b = m_num (x_soft x) -> b = x_soft x) ->
  XInv x0 (set_commit (set_pend x (c_remove (m_num b) (x_pend x))) b (x_soft x) c) ex.
Proof.
  intros Md X Hb Wb Same. pose proof (xi_soft X Md) as SI.
  assert (Hd : head_meta (set_commit (set_pend x (c_remove (m_num b) (x_pend x))) b (x_soft x) c)
               = head_meta x).
  { unfold head_meta. cbn. rewrite (xi_mode X). destruct (x_mode x0); congruence. }
  constructor; cbn; [apply X|apply X|apply X|lia|exact Wb|apply X| | |].
  - rewrite Hd. apply X.
  - rewrite Hd. apply X.
  - intros _. constructor; cbn; [exact Same| |].
    + intros k m. destruct (N.eq_dec k (m_num b)) as [->|Dk]; [now rewrite c_find_remove_same|].
      rewrite c_find_remove_other by exact Dk. apply (si_pend SI).
    + intros h m Hm Hf. rewrite c_find_remove_other by lia. apply (si_pend_all SI Hm); lia.
Qed.

Definition soft_special (x : exec) (h : N) (e : xerr) : Prop :=
  e = EOutOfOrder /\ exists es, nexts x = Some es /\ es < h.

Definition soft_live (x : exec) (h : N) (x' : exec) : Prop :=
  nextf x' = nextf x /\
  exists es, nexts x = Some es /\
    forall v, nexts x' = Some v -> v = if h =? es then es + 1 else es.

Lemma execute_soft_post x0 s h :
  x_mode x0 <> FirmOnly -> Inv x0 s -> xd s = None ->
  Post x0 (execute_soft s h) (soft_special (xe s) h) (soft_live (xe s) h).
Proof.
  intros Md I D. pose proof (inv_tr I) as T. destruct (inv_live I D) as [Sy _ X].
  assert (Hd : head_meta (xe s) = x_soft (xe s)) by (apply head_soft; now rewrite (xi_mode X)).
  unfold execute_soft.
  destruct (nexts (xe s)) as [es|] eqn:Ns; [|now apply post_harmless with EPanic].
  destruct (N.ltb_spec h es) as [Hlt|Hge].
  { apply post_live; [exact I|exact D|]. split; [reflexivity|]. exists es. split; [exact Ns|].
    intros v Hv. destruct (N.eqb_spec h es); [lia|congruence]. }
  destruct (N.ltb_spec es h) as [Hgt|Hle].
  { apply post_dead with EOutOfOrder; auto; try discriminate. right. split; [reflexivity|eauto]. }
  assert (h = es) by lia. subst h.
  destruct (s2r (x_sstart (xe s)) (x_rstart (xe s)) es) as [bn|] eqn:Sr;
    [|now apply post_harmless with EMap].
  rewrite <- Hd. apply exec_head_post with bn; auto; [rewrite start_height_eq, Hd; exact Ns|].
  intros m r' Hn -> Wm R2 s1 T2. subst s1. rewrite Hd in *.
  destruct (update_cases x0 _ (x_firm (xe s)) m (x_base (xe s)) SoftOnly T2) as (T3 & [D3|E3]).
  { pose proof (xi_le X). lia. }
  { intros _. cbn. rewrite Sy. cbn. lia. }
  { left. cbn. now rewrite Sy. }
  - rewrite D3. now apply post_harmless with EInvalidState.
  - rewrite E3 in *. cbn. apply post_live; [|reflexivity|].
    + constructor; cbn; [exact T3|split; discriminate|]. intros _.
      constructor; cbn; [reflexivity|exact R2|now apply xinv_exec_soft].
    + split; [reflexivity|]. exists es. split; [exact Ns|]. intros v Hv. rewrite N.eqb_refl.
      unfold nexts in Hv. cbn in Hv. rewrite Hn in Hv. eapply next_of_succ; [exact Ns|exact Hv].
Qed.

Definition firm_special (x : exec) (h : N) (e : xerr) : Prop :=
  e = EFirmHeight /\ exists ef, nextf x = Some ef /\ h <> ef.

Definition firm_live (x0 x : exec) (h : N) (x' : exec) : Prop :=
  nextf x = Some h /\ (forall v, nextf x' = Some v -> v = h + 1) /\
  (x_mode x0 <> FirmOnly ->
   exists es, nexts x = Some es /\ forall v, nexts x' = Some v -> es <= v).

(** executed by soft at that height, or a block from before the session *)
Definition known (x0 : exec) (ex : list (N * meta)) (h : N) (b : meta) : Prop :=
  In (h, b) ex \/ (m_num b <= m_num (x_soft x0) /\ m_hash b = HGen (m_num b)).

Section FirmBlock.
  Variables (x0 : exec) (s : xs) (h c bn : N).
  Hypothesis (HI : Inv x0 s) (D : xd s = None) (Lt : last_took (xt s) = Some (DFirm h c)).
  Hypothesis (Nf : nextf (xe s) = Some h).
  Hypothesis (Sr : s2r (x_sstart (xe s)) (x_rstart (xe s)) h = Some bn).

  Lemma firm_exec_post :
    head_meta (xe s) = x_firm (xe s) ->
    Post x0 (match exec_and_check s (m_hash (x_firm (xe s))) (m_num (x_firm (xe s))) h with
             | (s1, None) => s1
             | (s1, Some m) => update_commitment s1 m m c SoftAndFirm
             end) (firm_special (xe s) h) (firm_live x0 (xe s) h).
  Proof.
    intros Hd. destruct (inv_live HI D) as [Sy _ X].
    rewrite <- Hd. apply exec_head_post with bn; auto; [rewrite start_height_eq, Hd; exact Nf|].
    intros m r' Hn Hbn Wm R2 s1 T2. subst s1. rewrite Hd in *.
    destruct (update_cases x0 _ m m c SoftAndFirm T2 (N.le_refl _)) as (T3 & [D3|E3]).
    { intros NL. cbn. rewrite Sy. cbn. pose proof (xi_head X NL) as Q. rewrite Hd in Q. lia. }
    { right. exists h, c. split; [exact Lt|]. left. eexists. now left. }
    - now apply post_harmless with EInvalidState.
    - rewrite E3 in *. apply post_live; [|reflexivity|].
      + constructor; cbn; [exact T3|split; discriminate|]. intros _.
        constructor; cbn; [reflexivity|exact R2|]. apply xinv_exec_firm; auto. now rewrite <- Hbn.
      + assert (Up : forall v, next_of (x_sstart (xe s)) (x_rstart (xe s)) (m_num m) = Some v -> v = h + 1).
        { intros v Hv. rewrite Hn in Hv. eapply next_of_succ; [exact Nf|exact Hv]. }
        split; [exact Nf|]. split; [exact Up|]. intros Md.
        (* in a soft mode the head is the soft block, so soft expected [h] too *)
        exists h. split; [|intros v Hv; apply Up in Hv; lia].
        unfold nexts. rewrite <- (head_soft (xe s)), Hd by (now rewrite (xi_mode X)). exact Nf.
  Qed.

  Lemma firm_move_post es b :
    Start x0 -> x_mode x0 <> FirmOnly -> nexts (xe s) = Some es -> h <> es ->
    m_num b = bn -> known x0 (eexecs (xt s)) h b ->
    Post x0 (update_commitment
               {| xe := set_pend (xe s) (c_remove bn (x_pend (xe s))); xr := xr s; xt := xt s;
                  xd := None |} b (x_soft (xe s)) c FirmOnly)
         (firm_special (xe s) h) (firm_live x0 (xe s) h).
  Proof.
    intros St Md Ns Hne <- Src.
    pose proof (inv_tr HI) as T. pose proof (inv_live HI D) as [Sy R X].
    pose proof (xi_soft X Md) as SI. pose proof (xi_le X) as Le.
    (* [b] is numbered one above firm, and firm is behind soft since they expect different heights *)
    pose proof (next_of_Some _ _ _ _ Nf) as Af. pose proof (next_of_Some _ _ _ _ Ns) as As.
    assert (Hb : m_num b = m_num (x_firm (xe s)) + 1) by (eapply s2r_next; [exact Nf|exact Sr]).
    assert (Hlt : m_num (x_firm (xe s)) < m_num (x_soft (xe s))) by lia.
    destruct (chain_range (soft_chain Md X)) as (_ & Base & Rg).
    assert (Wb : hwf b /\ (m_num b = m_num (x_soft (xe s)) -> b = x_soft (xe s))).
    { destruct Src as [Hin|[Hpre Hh]].
      - split; [|apply (Rg h b Hin)]. apply (ro_wf R). rewrite (ro_exec R). apply (in_map snd _ _ Hin).
      - split; [unfold hwf; now rewrite Hh|]. intros Q.
        (* soft is still the session's soft block *)
        rewrite Base by lia. apply meta_eq; [rewrite <- Base; lia|].
        rewrite Hh, (st_soft _ St). f_equal. rewrite <- Base; lia. }
    destruct Wb as [Wb Same].
    destruct (update_cases x0 {| xe := set_pend (xe s) (c_remove (m_num b) (x_pend (xe s)));
                                 xr := xr s; xt := xt s; xd := None |}
                b (x_soft (xe s)) c FirmOnly T) as (T3 & [D3|E3]).
    { lia. }
    { intros _. cbn. rewrite Sy. cbn. lia. }
    { right. exists h, c. split; [exact Lt|].
      destruct Src as [Hin|[Hpre Hh]]; [left; now apply in_eexecs|right].
      split; [exact Hpre|]. split; [exact Hh|]. now rewrite <- (xi_ss X), <- (xi_rs X). }
    - now apply post_harmless with EInvalidState.
    - rewrite E3 in *. apply post_live; [|reflexivity|].
      + constructor; cbn; [exact T3|split; discriminate|]. intros _.
        constructor; cbn; [reflexivity|exact R|]. apply xinv_firm_move; auto. lia.
      + split; [exact Nf|]. split.
        * intros v Hv. unfold nextf in Hv. cbn in Hv. rewrite Hb in Hv.
          eapply next_of_succ; [exact Nf|exact Hv].
        * intros _. exists es. split; [exact Ns|]. intros v Hv.
          assert (v = es) by (unfold nexts in *; cbn in Hv; congruence). lia.
  Qed.
End FirmBlock.

Lemma execute_firm_post x0 s h c :
  Start x0 -> x_mode x0 <> SoftOnly -> Inv x0 s -> xd s = None ->
  last_took (xt s) = Some (DFirm h c) ->
  Post x0 (execute_firm s h c) (firm_special (xe s) h) (firm_live x0 (xe s) h).
Proof.
  intros St Md I D Lt. pose proof (inv_tr I) as T. pose proof (inv_live I D) as [Sy R X].
  unfold execute_firm.
  destruct (nextf (xe s)) as [ef|] eqn:Nf; [|now apply post_harmless with EPanic].
  destruct (N.eqb_spec h ef) as [->|Hne]; cbn [negb].
  2:{ apply post_dead with EFirmHeight; auto; try discriminate. right. split; [reflexivity|eauto]. }
  destruct (s2r (x_sstart (xe s)) (x_rstart (xe s)) ef) as [bn|] eqn:Sr;
    [|now apply post_harmless with EMap].
  destruct (nexts (xe s)) as [es|] eqn:Ns; [|now apply post_harmless with EPanic].
  rewrite (xi_mode X).
  destruct (x_mode x0) eqn:M0; [congruence| |]; cbn [should_execute_firm].
  { apply (firm_exec_post _ _ _ _ _ I D Lt Nf Sr). unfold head_meta. now rewrite (xi_mode X), M0. }
  assert (Ms : x_mode x0 <> FirmOnly) by congruence. pose proof (xi_soft X Ms) as SI.
  destruct (N.eqb_spec ef es) as [<-|Hfs].
  { apply (firm_exec_post _ _ _ _ _ I D Lt Nf Sr). rewrite head_soft by (rewrite (xi_mode X); congruence).
    symmetry. apply (si_same SI). eapply next_of_inj; [exact Nf|exact Ns]. }
  destruct (c_find bn (x_pend (xe s))) as [b|] eqn:Fb.
  - (* soft executed the block: it is pending *)
    destruct (si_pend SI Fb) as (<- & h' & Qin).
    destruct (chain_range (xi_chain X)) as (_ & _ & Rg). destruct (Rg h' b Qin) as (_ & _ & Qs).
    assert (h' = ef) by (eapply s2r_inj; [exact Qs|rewrite <- (xi_ss X), <- (xi_rs X); exact Sr]).
    subst h'. apply (firm_move_post _ _ _ _ _ I D Lt Nf Sr es b); auto. now left.
  - (* not pending, so not executed in this session: GetBlock by number *)
    assert (Hbn : bn = m_num (x_firm (xe s)) + 1) by (eapply s2r_next; [exact Nf|exact Sr]).
    rewrite (find_num_unexecuted x0 _ _ bn R).
    2:{ intros m Hin Q. apply in_map_iff in Hin as ([h' m'] & <- & Hin).
        pose proof (si_pend_all SI Hin) as P. cbn in Q. rewrite Q, Fb in P. discriminate P. lia. }
    destruct (N.leb_spec bn (m_num (x_soft x0))) as [Hpre|Hpre].
    + (* nothing is pending under [bn]: removing it would change nothing *)
      assert (Xe : set_pend (xe s) (c_remove bn (x_pend (xe s))) = xe s).
      { rewrite (c_remove_absent _ _ Fb). now destruct (xe s). }
      rewrite <- Xe at 1.
      apply (firm_move_post x0 {| xe := xe s; xr := xr s; xt := EvGet bn (Some (HGen bn)) :: xt s;
                                 xd := None |}) with (es := es); auto; [|now right].
      apply inv_silent; auto. exact Logic.I.
    + apply post_harmless with ERpc; [apply tr_silent; [exact Logic.I|exact T]|reflexivity|exact Logic.I].
Qed.

Lemma deliver_soft_post x0 s h :
  x_mode x0 <> FirmOnly -> Inv x0 s -> xd s = None ->
  Post x0 (deliver s (DSoft h)) (soft_special (xe s) h) (soft_live (xe s) h).
Proof.
  intros Md I D. unfold deliver, tick. rewrite D.
  apply (execute_soft_post x0 _ h Md (inv_silent x0 s (EvTookSoft h) Logic.I I D) eq_refl).
Qed.

Lemma deliver_firm_post x0 s h c :
  Start x0 -> x_mode x0 <> SoftOnly -> Inv x0 s -> xd s = None ->
  Post x0 (deliver s (DFirm h c)) (firm_special (xe s) h) (firm_live x0 (xe s) h).
Proof.
  intros St Md I D. unfold deliver, tick. rewrite D.
  apply (execute_firm_post x0 _ h c St Md (inv_silent x0 s (EvTookFirm h c) Logic.I I D) eq_refl eq_refl).
Qed.

Lemma deliver_inv x0 s d : Start x0 -> Inv x0 s -> admits (x_mode x0) d -> Inv x0 (deliver s d).
Proof.
  intros St I A. destruct (xd s) eqn:D; [unfold deliver; now rewrite D|].
  destruct d as [h|h c]; cbn in A.
  - eapply po_inv, deliver_soft_post; auto. intros Q. rewrite Q in A. discriminate.
  - eapply po_inv, deliver_firm_post; auto. intros Q. rewrite Q in A. discriminate.
Qed.

Lemma xreach_inv x0 s : Start x0 -> xreach x0 s -> Inv x0 s.
Proof.
  intros St R. induction R.
  - apply inv_init. exact St.
  - apply deliver_inv; assumption.
  - constructor; cbn; [apply IHR|split; discriminate|discriminate].
Qed.

Lemma xreach_every x0 s (Q : event -> list event -> Prop) :
  session x0 -> xreach x0 s -> (forall e r, Qall x0 e r -> Q e r) -> every Q (xt s).
Proof.
  intros Hs R Imp. eapply every_impl; [exact Imp|]. apply (xreach_inv _ _ (session_start _ Hs) R).
Qed.

Theorem exec_once_in_order : stmt_exec_once_in_order.
Proof. intros x0 s Hs R. apply (xreach_every x0 s _ Hs R). intros e r H. apply H. Qed.

Theorem commit_monotone : stmt_commit_monotone.
Proof. intros x0 s Hs NL R. apply (xreach_every x0 s _ Hs R). intros e r H. now apply H. Qed.

Theorem firm_le_soft : stmt_firm_le_soft.
Proof.
  intros x0 s Hs R. split; [|apply (xreach_inv _ _ (session_start _ Hs) R)].
  apply (xreach_every x0 s _ Hs R). intros e r H. apply H.
Qed.

Theorem firm_names_executed_height : stmt_firm_names_executed_height.
Proof. intros x0 s Hs R. apply (xreach_every x0 s _ Hs R). intros e r H. apply H. Qed.

Theorem stale_dropped : stmt_stale_dropped.
Proof.
  intros s h es D Ns Hlt. unfold deliver. rewrite D. unfold execute_soft. cbn [tick xe].
  rewrite Ns. destruct (N.ltb_spec h es); [reflexivity|lia].
Qed.

(** the full monotonicity statement is false of the faithful model *)

Definition wit_x0 : exec :=
  {| x_mode := FirmOnly; x_sstart := 10; x_rstart := 1; x_look := 3;
     x_firm := {| m_num := 2; m_hash := HGen 2 |}; x_soft := {| m_num := 4; m_hash := HGen 4 |};
     x_base := 7; x_pend := [] |}.

Theorem commit_monotone_refuted : stmt_commit_monotone_refuted.
Proof.
  exists wit_x0, (deliver (xs_of wit_x0) (DFirm 12 8)).
  split; [exists FirmOnly, 10, 1, 3, 2, 4, 7; reflexivity|].
  split; [split; [reflexivity|cbn; lia]|].
  split; [apply xreach_deliver; [constructor|reflexivity]|].
  intros H. unfold every in H.
  remember (xt (deliver (xs_of wit_x0) (DFirm 12 8))) as tr eqn:E. vm_compute in E. subst tr.
  specialize (H [] _ _ eq_refl). cbn in H. destruct H as [_ H]. lia.
Qed.

(** non-vacuity: a SoftAndFirm session with firm arriving first, a stale soft block, a
    duplicate, soft running ahead and firm catching up through the pending map.
    Heights 13 (firm), 14, 15 (soft) and 16 are executed as blocks 4 to 7; firm 12 is fetched by
    GetBlock, firm 14 and 15 are found pending; each of these seven updates the commitment. *)
Definition ex_x0 : exec :=
  {| x_mode := SoftAndFirm; x_sstart := 10; x_rstart := 1; x_look := 3;
     x_firm := {| m_num := 2; m_hash := HGen 2 |}; x_soft := {| m_num := 3; m_hash := HGen 3 |};
     x_base := 7; x_pend := [] |}.
Definition ex_deliveries : list delivery :=
  [DFirm 12 8; DFirm 13 9; DSoft 13; DSoft 14; DSoft 14; DSoft 15; DFirm 14 10; DFirm 15 11; DFirm 16 12].

Example ex_session : session ex_x0.
Proof. exists SoftAndFirm, 10, 1, 3, 2, 3, 7. reflexivity. Qed.

Lemma deliver_all_xreach x0 ds s :
  xreach x0 s -> Forall (admits (x_mode x0)) ds -> xreach x0 (deliver_all s ds).
Proof.
  intros R F. revert s R. induction F as [|d ds A F IH]; intros s R; [exact R|].
  cbn. apply IH. apply xreach_deliver; assumption.
Qed.

Example ex_reach : xreach ex_x0 (deliver_all (xs_of ex_x0) ex_deliveries).
Proof. apply deliver_all_xreach; [constructor|]. repeat constructor. Qed.

Example ex_nonvacuous :
  let s := deliver_all (xs_of ex_x0) ex_deliveries in
  xd s = None /\ length (emetas (xt s)) = 4%nat /\
  x_firm (xe s) = x_soft (xe s) /\ m_num (x_soft (xe s)) = 7 /\
  length (filter (fun e => match e with EvUpdate _ _ _ => true | _ => false end) (xt s)) = 7%nat /\
  length (filter (fun e => match e with EvGet _ _ => true | _ => false end) (xt s)) = 1%nat.
Proof. vm_compute. repeat split; reflexivity. Qed.
