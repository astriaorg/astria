(** C10 — arithmetic of the two height/number maps of state.rs: what a successful call says about
    its arguments.  Everything else about the maps follows from these by linear arithmetic. *)
From Astria Require Import Conductor.ConductorModel.

Lemma map_r2s_Some ss rs n h :
  map_r2s ss rs n = Some h ->
  rs <= n + 1 /\ rs <= ss + n /\ h = ss + n - rs /\ h <= I64_MAX /\ n + 1 <= U64_MAX.
Proof.
  unfold map_r2s. intros H.
  destruct (checked_add U64_MAX n 1) as [n1|] eqn:A1; [|discriminate].
  apply checked_add_Some in A1 as [-> A1].
  destruct (N.ltb_spec (n + 1) rs); [discriminate|].
  destruct (checked_add U64_MAX ss n) as [t|] eqn:A2; [|discriminate].
  apply checked_add_Some in A2 as [-> A2].
  destruct (checked_sub (ss + n) rs) as [d|] eqn:A3; [|discriminate].
  apply checked_sub_Some in A3 as [-> A3].
  destruct (N.leb_spec (ss + n - rs) I64_MAX); [|discriminate].
  inversion H. lia.
Qed.

Lemma next_of_Some ss rs n v :
  next_of ss rs n = Some v ->
  rs <= n + 1 /\ rs <= ss + n /\ v = ss + n - rs + 1 /\ n + 1 <= U64_MAX.
Proof.
  unfold next_of. destruct (map_r2s ss rs n) as [h|] eqn:E; [|discriminate].
  apply map_r2s_Some in E. destruct (h <? I64_MAX); [|discriminate].
  intros H. inversion H. lia.
Qed.

Lemma s2r_Some ss rs h k : s2r ss rs h = Some k -> ss <= h /\ k = h - ss + rs.
Proof.
  unfold s2r. destruct (checked_sub h ss) as [d|] eqn:S; [|discriminate].
  apply checked_sub_Some in S as [-> S]. intros A. apply checked_add_Some in A. lia.
Qed.

Lemma next_of_inj ss rs a b v : next_of ss rs a = Some v -> next_of ss rs b = Some v -> a = b.
Proof. intros Ha Hb. apply next_of_Some in Ha, Hb. lia. Qed.

Lemma next_of_succ ss rs a v w :
  next_of ss rs a = Some v -> next_of ss rs (a + 1) = Some w -> w = v + 1.
Proof. intros Ha Hb. apply next_of_Some in Ha, Hb. lia. Qed.

Lemma s2r_next ss rs a v bn : next_of ss rs a = Some v -> s2r ss rs v = Some bn -> bn = a + 1.
Proof. intros Ha Hb. apply next_of_Some in Ha. apply s2r_Some in Hb. lia. Qed.

Lemma s2r_inj ss rs h h' k : s2r ss rs h = Some k -> s2r ss rs h' = Some k -> h = h'.
Proof. intros H H'. apply s2r_Some in H, H'. lia. Qed.

Lemma next_after ss rs n v h : next_of ss rs n = Some v -> s2r ss rs h = Some n -> v = h + 1.
Proof. intros Hv Hh. apply next_of_Some in Hv. apply s2r_Some in Hh. lia. Qed.
