(** C10 — proofs, layer 2: the honest composed system (readers, caches, channels, executor). *)
From Astria Require Import Conductor.ConductorSpec Conductor.ConductorProofs.

(** what the soft channel (then the enqueued block, then the cache's next height) may contain
    when the executor expects height [E]: every element is at most what the executor will expect
    when it gets there *)
Fixpoint soft_ok (E : N) (l : list N) (nxt : N) : Prop :=
  match l with
  | [] => nxt <= E
  | c :: r => c <= E /\ soft_ok (if c =? E then E + 1 else E) r nxt
  end.

(** the firm channel holds exactly the next expected heights, in order *)
Fixpoint firm_ok (E : N) (l : list (N * N)) (nxt : N) : Prop :=
  match l with
  | [] => nxt = E
  | (h, _) :: r => h = E /\ firm_ok (E + 1) r nxt
  end.

Definition olist {A} (o : option A) : list A := match o with Some a => [a] | None => [] end.

Lemma soft_ok_mono E E' l nxt : E <= E' -> soft_ok E l nxt -> soft_ok E' l nxt.
Proof.
  revert E E'. induction l as [|c l IH]; cbn; intros E E' Le H; [lia|].
  destruct H as [Hc H]. split; [lia|]. eapply IH; [|exact H].
  destruct (N.eqb_spec c E), (N.eqb_spec c E'); lia.
Qed.

Lemma soft_ok_snoc E l nxt : soft_ok E l nxt -> soft_ok E (l ++ [nxt]) (nxt + 1).
Proof.
  revert E. induction l as [|c l IH]; cbn; intros E H.
  - split; [exact H|]. destruct (N.eqb_spec nxt E); lia.
  - destruct H as [Hc H]. split; [exact Hc|]. apply IH. exact H.
Qed.

Lemma soft_ok_max E l nxt v : v <= E -> soft_ok E l nxt -> soft_ok E l (N.max nxt v).
Proof.
  revert E. induction l as [|c l IH]; cbn; intros E Hv H; [lia|].
  destruct H as [Hc H]. split; [exact Hc|]. apply IH; [|exact H].
  destruct (N.eqb_spec c E); lia.
Qed.

Lemma firm_ok_snoc E l nxt c : firm_ok E l nxt -> firm_ok E (l ++ [(nxt, c)]) (nxt + 1).
Proof.
  revert E. induction l as [|[h c'] l IH]; cbn; intros E H.
  - subst. split; reflexivity.
  - destruct H as [Hc H]. split; [exact Hc|]. apply IH. exact H.
Qed.

Lemma c_insert_next {A} (c c' : cache A) h a r : c_insert c h a = (c', r) -> c_next c' = c_next c.
Proof.
  unfold c_insert. destruct (h <? c_next c); [now intros [= <- _]|].
  destruct (c_find h (c_items c)); now intros [= <- _].
Qed.

Lemma c_pop_some {A} (c c' : cache A) a : c_pop c = (c', PopSome a) -> c_next c' = c_next c + 1.
Proof.
  unfold c_pop. destruct (c_find (c_next c) (c_items c)); [|discriminate].
  unfold checked_add. destruct (c_next c + 1 <=? U64_MAX); intros H; inversion H; reflexivity.
Qed.

(** the line of a reader: its channel, then its enqueued block *)
Record SysInv (x0 : exec) (s : sys) : Prop := {
  sy_x : xreach x0 (s_x s);
  sy_sc : s_sc s = None -> s_sq s = [] /\ s_senq s = None;
  sy_fc : s_fc s = None -> s_fq s = [] /\ s_fenq s = None;
  sy_msoft : forall c, s_sc s = Some c -> with_soft (x_mode x0) = true;
  sy_mfirm : forall c, s_fc s = Some c -> with_firm (x_mode x0) = true;
  sy_soft : xd (s_x s) = None -> forall c es, s_sc s = Some c -> nexts (xe (s_x s)) = Some es ->
            soft_ok es (s_sq s ++ olist (s_senq s)) (c_next c);
  sy_firm : xd (s_x s) = None -> forall c ef, s_fc s = Some c -> nextf (xe (s_x s)) = Some ef ->
            firm_ok ef (s_fq s ++ olist (s_fenq s)) (c_next c);
  sy_err : xd (s_x s) <> Some EOutOfOrder /\ xd (s_x s) <> Some EFirmHeight
}.

Lemma sysinv_init x0 : SysInv x0 (sys_of x0).
Proof.
  constructor; cbn; auto.
  - constructor.
  - intros c. destruct (with_soft (x_mode x0)); [reflexivity|discriminate].
  - intros c. destruct (with_firm (x_mode x0)); [reflexivity|discriminate].
  - intros _ c es Hc Hn. destruct (with_soft (x_mode x0)); [|discriminate].
    rewrite Hn in Hc. cbn in Hc. unfold c_new in Hc. destruct (es =? 0); [discriminate|].
    inversion Hc; subst; cbn. lia.
  - intros _ c ef Hc Hn. destruct (with_firm (x_mode x0)); [|discriminate].
    rewrite Hn in Hc. cbn in Hc. unfold c_new in Hc. destruct (ef =? 0); [discriminate|].
    inversion Hc; subst; cbn. reflexivity.
  - split; discriminate.
Qed.

Lemma sysinv_soft_side x0 s c c' sq' senq' :
  SysInv x0 s -> s_sc s = Some c ->
  (forall es, nexts (xe (s_x s)) = Some es ->
     soft_ok es (s_sq s ++ olist (s_senq s)) (c_next c) -> soft_ok es (sq' ++ olist senq') (c_next c')) ->
  SysInv x0 (upd s (s_x s) (Some c') (s_fc s) sq' (s_fq s) senq' (s_fenq s)).
Proof.
  intros I Sc K. pose proof (sy_msoft _ _ I) as Ms. destruct I. constructor; cbn; auto; try discriminate.
  - intros c0 _. exact (Ms c Sc).
  - intros D c0 es [= <-] Ns. apply K; auto.
Qed.

Lemma sysinv_firm_side x0 s c c' fq' fenq' :
  SysInv x0 s -> s_fc s = Some c ->
  (forall ef, firm_ok ef (s_fq s ++ olist (s_fenq s)) (c_next c) -> firm_ok ef (fq' ++ olist fenq') (c_next c')) ->
  SysInv x0 (upd s (s_x s) (s_sc s) (Some c') (s_sq s) fq' (s_senq s) fenq').
Proof.
  intros I Fc K. pose proof (sy_mfirm _ _ I) as Mf. destruct I. constructor; cbn; auto; try discriminate.
  - intros c0 _. exact (Mf c Fc).
  - intros D c0 ef [= <-] Nf. apply K; auto.
Qed.

(** sent or enqueued, the line grows by the popped height *)
Lemma sysinv_soft_push x0 s c c' sq' senq' :
  SysInv x0 s -> s_sc s = Some c -> s_senq s = None -> c_next c' = c_next c + 1 ->
  sq' ++ olist senq' = s_sq s ++ [c_next c] ->
  SysInv x0 (upd s (s_x s) (Some c') (s_fc s) sq' (s_fq s) senq' (s_fenq s)).
Proof.
  intros I Sc Se Nx E. apply sysinv_soft_side with c; auto. intros es _ K.
  rewrite Se in K. cbn in K. rewrite app_nil_r in K. rewrite E, Nx. now apply soft_ok_snoc.
Qed.

Lemma sysinv_firm_push x0 s c c' v fq' fenq' :
  SysInv x0 s -> s_fc s = Some c -> s_fenq s = None -> c_next c' = c_next c + 1 ->
  fq' ++ olist fenq' = s_fq s ++ [(c_next c, v)] ->
  SysInv x0 (upd s (s_x s) (s_sc s) (Some c') (s_sq s) fq' (s_senq s) fenq').
Proof.
  intros I Fc Fe Nx E. apply sysinv_firm_side with c; auto. intros ef K.
  rewrite Fe in K. cbn in K. rewrite app_nil_r in K. rewrite E, Nx. now apply firm_ok_snoc.
Qed.

Lemma sysinv_take_firm x0 s h c rest :
  Start x0 -> SysInv x0 s -> xd (s_x s) = None -> s_fq s = (h, c) :: rest ->
  SysInv x0 (upd s (deliver (s_x s) (DFirm h c)) (s_sc s) (s_fc s) (s_sq s) rest (s_senq s) (s_fenq s)).
Proof.
  intros St I D Fq.
  destruct (s_fc s) as [fc|] eqn:Fc; [|destruct (sy_fc _ _ I Fc); congruence].
  pose proof (sy_mfirm _ _ I fc Fc) as Wf.
  assert (Md : x_mode x0 <> SoftOnly) by (intros Q; rewrite Q in Wf; discriminate).
  destruct (deliver_firm_post x0 (s_x s) h c St Md (xreach_inv _ _ St (sy_x _ _ I)) D) as [_ PE PL].
  (* the head of the firm channel is the height firm expects *)
  assert (Hd : forall ef, nextf (xe (s_x s)) = Some ef ->
               h = ef /\ firm_ok (ef + 1) (rest ++ olist (s_fenq s)) (c_next fc)).
  { intros ef Nf. pose proof (sy_firm _ _ I D fc ef Fc Nf) as K. rewrite Fq in K. exact K. }
  constructor; cbn.
  - apply xreach_deliver; [apply (sy_x _ _ I)|exact Wf].
  - apply (sy_sc _ _ I).
  - discriminate.
  - apply (sy_msoft _ _ I).
  - intros c0 _. exact Wf.
  - intros D' c0 es' Sc Ns'. destruct (PL D') as (_ & _ & Hs).
    destruct Hs as (es & Ns & Mono).
    { intros Q. pose proof (sy_msoft _ _ I c0 Sc) as W. rewrite Q in W. discriminate. }
    apply soft_ok_mono with es; [apply Mono, Ns'|apply (sy_soft _ _ I D c0 es Sc Ns)].
  - intros D' c0 ef' [= <-] Nf'. destruct (PL D') as (Nf & Up & _).
    rewrite (Up ef' Nf'). apply (Hd h Nf).
  - split; intros Q; destruct (PE _ Q) as [[]|(E & ef & Nf & Ne)]; [discriminate E|].
    now destruct (Hd ef Nf).
Qed.

Lemma sysinv_take_soft x0 s h rest :
  Start x0 -> SysInv x0 s -> xd (s_x s) = None -> s_sq s = h :: rest ->
  SysInv x0 (upd s (deliver (s_x s) (DSoft h)) (s_sc s) (s_fc s) rest (s_fq s) (s_senq s) (s_fenq s)).
Proof.
  intros St I D Sq.
  destruct (s_sc s) as [c|] eqn:Sc; [|destruct (sy_sc _ _ I Sc); congruence].
  pose proof (sy_msoft _ _ I c Sc) as Ws.
  assert (Md : x_mode x0 <> FirmOnly) by (intros Q; rewrite Q in Ws; discriminate).
  destruct (deliver_soft_post x0 (s_x s) h Md (xreach_inv _ _ St (sy_x _ _ I)) D) as [_ PE PL].
  (* the head of the soft channel is at most the height soft expects *)
  assert (Hd : forall es, nexts (xe (s_x s)) = Some es ->
               h <= es /\ soft_ok (if h =? es then es + 1 else es) (rest ++ olist (s_senq s)) (c_next c)).
  { intros es Ns. pose proof (sy_soft _ _ I D c es Sc Ns) as K. rewrite Sq in K. exact K. }
  constructor; cbn.
  - apply xreach_deliver; [apply (sy_x _ _ I)|exact Ws].
  - discriminate.
  - apply (sy_fc _ _ I).
  - intros c0 _. exact Ws.
  - apply (sy_mfirm _ _ I).
  - intros D' c0 es' [= <-] Ns'. destruct (PL D') as (_ & es & Ns & Up).
    rewrite (Up es' Ns'). apply (Hd es Ns).
  - intros D' c0 ef' Fc' Nf'. destruct (PL D') as (Same & _). rewrite Same in Nf'.
    apply (sy_firm _ _ I D c0 ef' Fc' Nf').
  - split; intros Q; destruct (PE _ Q) as [[]|(E & es & Ns & Lt)]; [|discriminate E].
    destruct (Hd es Ns). lia.
Qed.

Lemma hstep_inv x0 s l s' : Start x0 -> SysInv x0 s -> hstep s l = Some s' -> SysInv x0 s'.
Proof.
  intros St I H. destruct l; cbn in H.
  - destruct (s_sc s) as [c|] eqn:Sc; [|discriminate]. unfold do_sf in H. rewrite Sc in H.
    destruct (c_insert c h tt) as [c' r] eqn:Ci. cbn in H. inversion H; subst s'; clear H.
    apply sysinv_soft_side with c; auto. intros es _ K. now rewrite (c_insert_next _ _ _ _ _ Ci).
  - unfold do_so in H. destruct (s_sc s) as [c|] eqn:Sc; [|discriminate].
    destruct (nexts (xe (s_x s))) as [v|] eqn:Nv; [|discriminate].
    inversion H; subst s'; clear H.
    apply sysinv_soft_side with c; auto. intros es Ne K. cbn.
    apply soft_ok_max; [|exact K]. assert (v = es) by congruence. lia.
  - unfold do_sp in H. destruct (s_sc s) as [c|] eqn:Sc; [|discriminate].
    destruct (s_senq s) eqn:Se; [discriminate|].
    destruct (c_pop c) as [c' [| u |]] eqn:Cp; try discriminate.
    pose proof (c_pop_some _ _ _ Cp) as Nx.
    destruct (lenN (s_sq s) <? s_scap s); inversion H; subst s'; clear H.
    + apply sysinv_soft_push with c; auto. apply app_nil_r.
    + apply sysinv_soft_push with c; auto.
  - unfold do_sq in H. destruct (s_senq s) as [h|] eqn:Se; [|discriminate].
    destruct (lenN (s_sq s) <? s_scap s); [|discriminate]. inversion H; subst s'; clear H.
    destruct (s_sc s) as [c|] eqn:Sc; [|destruct (sy_sc _ _ I Sc); congruence].
    apply sysinv_soft_side with c; auto. intros es _ K. rewrite Se in K. cbn in *.
    now rewrite app_nil_r.
  - destruct (s_fc s) as [fc|] eqn:Fc; [|discriminate]. unfold do_ff in H. rewrite Fc in H.
    destruct (c_insert fc h c) as [c' r] eqn:Ci. cbn in H. inversion H; subst s'; clear H.
    apply sysinv_firm_side with fc; auto. intros ef K. now rewrite (c_insert_next _ _ _ _ _ Ci).
  - unfold do_fp in H. destruct (s_fc s) as [fc|] eqn:Fc; [|discriminate].
    destruct (s_fenq s) eqn:Fe; [discriminate|].
    destruct (c_pop fc) as [c' [| u |]] eqn:Cp; try discriminate.
    pose proof (c_pop_some _ _ _ Cp) as Nx.
    destruct (lenN (s_fq s) <? s_fcap s); inversion H; subst s'; clear H.
    + apply sysinv_firm_push with fc u; auto. apply app_nil_r.
    + apply sysinv_firm_push with fc u; auto.
  - unfold do_fq in H. destruct (s_fenq s) as [[h c]|] eqn:Fe; [|discriminate].
    destruct (lenN (s_fq s) <? s_fcap s); [|discriminate]. inversion H; subst s'; clear H.
    destruct (s_fc s) as [fc|] eqn:Fc; [|destruct (sy_fc _ _ I Fc); congruence].
    apply sysinv_firm_side with fc; auto. intros ef K. rewrite Fe in K. cbn in *.
    now rewrite app_nil_r.
  - destruct (xd (s_x s)) eqn:D; [discriminate|].
    destruct (s_fq s) as [|[h c] rest] eqn:Fq; [discriminate|].
    destruct (spread_too_large (xe (s_x s))); [|discriminate]. inversion H; subst s'; clear H.
    now apply sysinv_take_firm.
  - destruct (xd (s_x s)) eqn:D; [discriminate|].
    destruct (s_sq s) as [|h rest] eqn:Sq; [discriminate|].
    destruct (spread_too_large (xe (s_x s))) as [[|]|]; try discriminate. inversion H; subst s'; clear H.
    now apply sysinv_take_soft.
  - destruct (xd (s_x s)) eqn:D; [discriminate|].
    destruct (spread_too_large (xe (s_x s))); [discriminate|]. inversion H; subst s'; clear H.
    destruct I. constructor; cbn; auto; try discriminate.
    + apply xreach_panic. assumption.
    + split; discriminate.
Qed.

Lemma hsteps_inv x0 ls : forall s s', Start x0 -> SysInv x0 s -> hsteps s ls = Some s' -> SysInv x0 s'.
Proof.
  induction ls as [|l ls IH]; cbn; intros s s' St I H.
  - inversion H; subst; exact I.
  - destruct (hstep s l) as [s1|] eqn:E; [|discriminate].
    eapply IH; [exact St| |exact H]. eapply hstep_inv; eauto.
Qed.

Theorem system_refines : stmt_system_refines.
Proof.
  intros x0 s Hs (ls & H). apply (sy_x x0 s).
  eapply hsteps_inv; [apply session_start; exact Hs|apply sysinv_init|exact H].
Qed.

Theorem never_greater : stmt_never_greater.
Proof.
  intros x0 s Hs (ls & H).
  assert (I : SysInv x0 s) by (eapply hsteps_inv; [apply session_start; exact Hs|apply sysinv_init|exact H]).
  destruct (sy_err _ _ I) as [A B].
  destruct (firm_le_soft x0 (s_x s) Hs (sy_x _ _ I)) as (_ & C & D). auto.
Qed.

(** the harness' [do_run] is a sequence of executor steps of the relation *)
Lemma loop_iter_label s s' :
  loop_iter s = Some s' -> exists l, (l = LXf \/ l = LXs \/ l = LXp) /\ hstep s l = Some s'.
Proof.
  unfold loop_iter. destruct (xd (s_x s)) eqn:D; [discriminate|].
  destruct (spread_too_large (xe (s_x s))) as [tl|] eqn:Sp.
  - destruct (s_fq s) as [|[h c] rest] eqn:Fq.
    + destruct (s_sq s) as [|h rest] eqn:Sq; [discriminate|]. destruct tl; [discriminate|].
      intros H. exists LXs. split; [auto|]. cbn. rewrite D, Sq, Sp, Fq. exact H.
    + intros H. exists LXf. split; [auto|]. cbn. rewrite D, Fq, Sp. exact H.
  - intros H. exists LXp. split; [auto|]. cbn. rewrite D, Sp. exact H.
Qed.

Lemma run_loop_labels fuel : forall s, exists ls,
  hsteps s ls = Some (run_loop fuel s) /\ Forall (fun l => l = LXf \/ l = LXs \/ l = LXp) ls.
Proof.
  induction fuel as [|f IH]; intros s; cbn.
  - exists []. split; [reflexivity|constructor].
  - destruct (loop_iter s) as [s1|] eqn:E.
    + destruct (loop_iter_label _ _ E) as (l & Hl & Hs). destruct (IH s1) as (ls & H1 & H2).
      exists (l :: ls). split; [cbn; now rewrite Hs|constructor; assumption].
    + exists []. split; [reflexivity|constructor].
Qed.

Theorem run_is_interleaving : stmt_run_is_interleaving.
Proof. intros s. unfold do_run. cbn [fst]. apply run_loop_labels. Qed.

(** non-vacuity: an interleaving of the composed system in which the firm reader delivers first,
    the soft reader receives its blocks out of order and twice, a stale soft block reaches the
    executor, and the run ends with both commitments on an executed block.
    The executor takes firm 12 (GetBlock), firm 13 (block 4), soft 13 (stale), soft 14 (block 5),
    firm 14 (pending) and firm 15 (block 6). *)
Definition ex_labels : list label :=
  [LFf 13 9; LFf 12 8; LSf 14; LSf 13; LSf 13; LFp; LFp; LSp; LXf; LXf; LSp; LXs; LXs; LSo;
   LFf 14 10; LFp; LXf; LFf 15 11; LFp; LXf].

Example ex_sys_nonvacuous :
  exists s, hsteps (sys_of ex_x0) ex_labels = Some s /\ xd (s_x s) = None /\
            length (emetas (xt (s_x s))) = 3%nat /\ m_num (x_firm (xe (s_x s))) = 6 /\
            x_firm (xe (s_x s)) = x_soft (xe (s_x s)).
Proof. eexists. vm_compute. repeat split; reflexivity. Qed.
