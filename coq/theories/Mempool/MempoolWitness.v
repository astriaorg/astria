(** C13 — concrete runs: the two repaired defects (stated about the PRE-FIX definitions of
    MempoolPrefix.v and, side by side, about the current model), the literal reading of
    "consecutive", and non-vacuity examples for the theorems. *)
From Astria Require Import Mempool.MempoolSpec Mempool.MempoolPrefix.

Definition tr (id acct nonce amount : N) : tx := mkTx id acct nonce 4 0 amount 0.

(** F12 (repaired by 05018e5): three pending transfers of one account, the balance drops,
    maintenance has to demote two of them into a parked container with room for one. *)
Definition f12_ops : list op :=
  [OpTx (tr 1 0 0 4); OpTx (tr 2 0 1 3); OpTx (tr 3 0 2 3); OpBal 0 0 10;
   OpIns 1; OpIns 2; OpIns 3; OpBal 0 0 4; OpMaint false 3 []].

(** repaired: the transaction that cannot be parked is reported as removed (InternalError) *)
Lemma f12_run_fixed :
  let '(s, g) := grun (init 1 1 1) ghost0 f12_ops in
  g_live g = [3; 2; 1] /\
  tx_status (s_universe s) (s_pool s) 3 = Some (SRemoved RInternal) /\
  tx_status (s_universe s) (s_pool s) 2 = Some SParked /\
  tx_status (s_universe s) (s_pool s) 1 = Some SPending /\
  builder_queue (s_universe s) (s_pool s) = [1].
Proof. vm_compute. repeat split; reflexivity. Qed.

Lemma f12_before :
  let '(s, g) := grun (init 1 1 1) ghost0 (removelast f12_ops) in
  g_live g = [3; 2; 1] /\ builder_queue (s_universe s) (s_pool s) = [1; 2; 3].
Proof. vm_compute. split; reflexivity. Qed.

(** pre-fix: the same maintenance left transaction 3 accepted, never reported, in no
    container and without a removal reason *)
Lemma f12_prefix_lost :
  let s := fst (run (init 1 1 1) (removelast f12_ops)) in
  let p' := run_maintenance_prefix (s_universe s) (s_pmax s) (s_chain s) (s_pool s) false [] 3 in
  tx_status (s_universe s) (s_pool s) 3 = Some SPending /\
  tx_status (s_universe s) p' 3 = None /\
  map e_id (p_pending p' 0) = [1] /\ map e_id (p_parked p' 0) = [2] /\ p_rcache p' = [].
Proof. vm_compute. repeat split; reflexivity. Qed.

(** the NonceTaken variant *)
Definition f12_taken_ops : list op :=
  [OpBal 0 0 3; OpTx (tr 1 0 0 9); OpTx (tr 2 0 0 2); OpIns 1; OpIns 2; OpBal 0 0 0;
   OpMaint false 3 []].

Lemma f12_taken_run_fixed :
  let '(s, g) := grun (init 10 1 1) ghost0 f12_taken_ops in
  tx_status (s_universe s) (s_pool s) 2 = Some (SRemoved RInternal) /\
  tx_status (s_universe s) (s_pool s) 1 = Some SParked.
Proof. vm_compute. split; reflexivity. Qed.

Lemma f12_taken_prefix_lost :
  let s := fst (run (init 10 1 1) (removelast f12_taken_ops)) in
  let p' := run_maintenance_prefix (s_universe s) (s_pmax s) (s_chain s) (s_pool s) false [] 3 in
  tx_status (s_universe s) p' 2 = None /\ tx_status (s_universe s) p' 1 = Some SParked.
Proof. vm_compute. split; reflexivity. Qed.

(** the literal reading of "consecutive" (stale entries count as ready) *)
Definition stmt_ready_consecutive_literal : Prop :=
  forall pmax k na ops,
  let s := fst (run (init pmax k na) ops) in
  forall a n m j, has_nonce (p_pending (s_pool s) a) n = true ->
                  has_nonce (p_pending (s_pool s) a) m = true ->
                  n <= j -> j <= m -> has_nonce (p_pending (s_pool s) a) j = true.

Definition literal_ops : list op :=
  [OpBal 0 0 100; OpBump 0 5; OpTx (tr 1 0 5 1); OpIns 1; OpBump 0 2; OpTx (tr 2 0 7 1); OpIns 2].

Theorem ready_consecutive_literal_refuted : ~ stmt_ready_consecutive_literal.
Proof.
  intros H. specialize (H 4 1 1 literal_ops 0 5 7 6). cbn zeta in H.
  assert (H6 : has_nonce (p_pending (s_pool (fst (run (init 4 1 1) literal_ops))) 0) 6 = false)
    by (vm_compute; reflexivity).
  rewrite H in H6; [discriminate| | | |]; try lia; vm_compute; reflexivity.
Qed.

(** maintenance removes the stale entry and the claim proper holds again *)
Lemma literal_after_maintenance :
  let s := fst (run (init 4 1 1) (literal_ops ++ [OpMaint false 3 []])) in
  map e_nonce (p_pending (s_pool s) 0) = [7] /\
  tx_status (s_universe s) (s_pool s) 1 = Some (SRemoved RStale).
Proof. vm_compute. split; reflexivity. Qed.

(** F12b (repaired by ae54eb4): a transaction carrying the nonce u32::MAX *)
Definition nonce_max_ops : list op :=
  [OpBal 0 0 100; OpBump 0 U32_MAX; OpTx (tr 1 0 U32_MAX 1); OpInsd 1].

(** repaired: accepted into pending, tracked, nothing promoted behind it *)
Lemma nonce_max_run_fixed :
  let '(s, outs) := run (init 4 1 1) nonce_max_ops in
  last outs OOk = OIns IPending /\
  builder_queue (s_universe s) (s_pool s) = [1] /\
  tx_status (s_universe s) (s_pool s) 1 = Some SPending.
Proof. vm_compute. repeat split; reflexivity. Qed.

(** pre-fix: [insert] panicked after the addition to pending and left the transaction in the
    builder queue but untracked *)
Lemma nonce_max_prefix_panics :
  let s := fst (run (init 4 1 1) (removelast nonce_max_ops)) in
  match insert_pending_prefix (s_pool s) (tr 1 0 U32_MAX 1) U32_MAX (c_bal (s_chain s) 0) [(0, 1)] with
  | Some (p', None) =>
      builder_queue (s_universe s) p' = [1] /\ tx_status (s_universe s) p' 1 = None
  | _ => False
  end.
Proof. vm_compute. split; reflexivity. Qed.

(** ** non-vacuity: one history with parking, promotion on insert, demotion and promotion by
    maintenance, inclusion, invalid-removal, re-CheckTx of a removed transaction, two
    accounts, two assets, all four groups *)
Definition demo_ops : list op :=
  [OpFee 2 7; OpBal 0 0 40; OpBal 0 1 9; OpBal 1 0 5;
   OpTx (mkTx 1 0 0 4 0 10 1); OpTx (mkTx 2 0 1 4 0 10 0); OpTx (mkTx 3 0 2 3 0 0 1);
   OpTx (mkTx 4 0 3 4 1 5 1); OpTx (mkTx 5 1 0 1 0 0 0); OpTx (mkTx 6 1 1 2 0 0 0);
   OpTx (mkTx 7 1 2 4 0 3 0);
   OpIns 1; OpIns 3; OpIns 2; OpIns 4; OpIns 5; OpIns 7; OpIns 6].

Lemma demo_run_1 :
  let '(s, g) := grun (init 5 2 2) ghost0 demo_ops in
  map e_nonce (p_pending (s_pool s) 0) = [0; 1; 2] /\
  map e_nonce (p_parked (s_pool s) 0) = [3] /\
  map e_nonce (p_pending (s_pool s) 1) = [0; 1; 2] /\
  builder_queue (s_universe s) (s_pool s) = [1; 2; 7; 3; 6; 5] /\
  g_live g = [6; 7; 5; 4; 2; 3; 1].
Proof. vm_compute. repeat split; reflexivity. Qed.

Definition demo_ops2 : list op :=
  demo_ops ++ [OpBal 0 0 12; OpMaint false 7 []; OpBump 0 1; OpBal 0 1 30; OpMaint true 8 [1];
               OpRm 5; OpIns 5; OpIns 5; OpAdvance 300; OpMaint false 9 []].

Lemma demo_run_2 :
  let '(s, g) := grun (init 5 2 2) ghost0 (removelast (removelast demo_ops2)) in
  map e_nonce (p_pending (s_pool s) 0) = [1; 2; 3] /\
  map e_nonce (p_pending (s_pool s) 1) = [0] /\
  tx_status (s_universe s) (s_pool s) 1 = Some (SRemoved (RIncl 8)) /\
  tx_status (s_universe s) (s_pool s) 6 = Some (SRemoved RLower).
Proof. vm_compute. repeat split; reflexivity. Qed.

(** model-only: after 300 s every remaining transaction expires *)
Lemma demo_run_expiry :
  let '(s, g) := grun (init 5 2 2) ghost0 demo_ops2 in
  p_contained (s_pool s) = [] /\
  tx_status (s_universe s) (s_pool s) 2 = Some (SRemoved RExpired) /\
  tx_status (s_universe s) (s_pool s) 3 = Some (SRemoved RLower).
Proof. vm_compute. repeat split; reflexivity. Qed.
