(** C13 — builder queue: within an account and an action group, lower nonces come first. *)
From Astria Require Import Mempool.MempoolSpec Mempool.MempoolBase Mempool.MempoolOps
  Mempool.MempoolInv Mempool.MempoolLight Mempool.MempoolLight3.

Definition q_le (x y : qkey) : Prop := q_before x y = true.

Lemma q_before_refl x : q_before x x = true.
Proof.
  unfold q_before. rewrite !N.eqb_refl, N.leb_refl. cbn. now rewrite !orb_true_r.
Qed.

Lemma q_before_spec x y :
  q_before x y = true <->
  (q_group y < q_group x \/
   (q_group x = q_group y /\
    (q_diff x < q_diff y \/ (q_diff x = q_diff y /\ q_seq x <= q_seq y)))).
Proof.
  unfold q_before.
  rewrite orb_true_iff, andb_true_iff, orb_true_iff, andb_true_iff.
  rewrite !N.ltb_lt, !N.eqb_eq, N.leb_le. tauto.
Qed.

Lemma q_before_total x y : q_before x y = false -> q_before y x = true.
Proof. intros H. apply not_true_iff_false in H. rewrite q_before_spec in *. lia. Qed.

Lemma q_before_trans x y z : q_before x y = true -> q_before y z = true -> q_before x z = true.
Proof. rewrite !q_before_spec. lia. Qed.

Lemma q_insert_perm x l : Permutation (q_insert x l) (x :: l).
Proof.
  induction l as [|y l IH]; cbn; [reflexivity|]. destruct (q_before x y); [reflexivity|].
  rewrite IH. apply perm_swap.
Qed.

Lemma q_sort_perm l : Permutation (q_sort l) l.
Proof.
  unfold q_sort. induction l as [|x l IH]; cbn; [reflexivity|].
  rewrite q_insert_perm. now constructor.
Qed.

Lemma q_insert_sorted x l : StronglySorted q_le l -> StronglySorted q_le (q_insert x l).
Proof.
  induction l as [|y l IH]; intros H; cbn.
  - constructor; constructor.
  - inversion H as [|? ? Hs Hall]; subst. destruct (q_before x y) eqn:E.
    + constructor; [assumption|]. constructor; [exact E|].
      eapply Forall_impl; [|exact Hall]. intros z Hz. eapply q_before_trans; eauto.
    + constructor; [now apply IH|]. apply Forall_forall. intros z Hz.
      apply (Permutation_in _ (q_insert_perm x l)) in Hz. destruct Hz as [<-|Hz].
      * now apply q_before_total.
      * rewrite Forall_forall in Hall. now apply Hall.
Qed.

Lemma q_sort_sorted l : StronglySorted q_le (q_sort l).
Proof.
  unfold q_sort. induction l as [|x l IH]; cbn; [constructor|]. now apply q_insert_sorted.
Qed.

Lemma sorted_before_in x y l :
  StronglySorted q_le l -> In x l -> In y l -> q_before y x = false -> before_in x y l.
Proof.
  induction l as [|z l IH]; intros Hs Hx Hy Hn; [contradiction|].
  inversion Hs as [|? ? Hs' Hall]; subst. rewrite Forall_forall in Hall.
  destruct Hx as [->|Hx].
  - destruct Hy as [->|Hy]; [rewrite q_before_refl in Hn; discriminate|].
    apply in_split in Hy. destruct Hy as [l2 [l3 ->]]. exists [], l2, l3. reflexivity.
  - destruct Hy as [->|Hy].
    + specialize (Hall x Hx). unfold q_le in Hall. congruence.
    + destruct (IH Hs' Hx Hy Hn) as [l1 [l2 [l3 ->]]]. exists (z :: l1), l2, l3. reflexivity.
Qed.

Lemma before_in_map {A B} (f : A -> B) x y l : before_in x y l -> before_in (f x) (f y) (map f l).
Proof.
  intros [l1 [l2 [l3 ->]]]. exists (map f l1), (map f l2), (map f l3).
  now rewrite map_app, map_cons, map_app, map_cons.
Qed.

Lemma sorted_head_min f l e : sorted (f :: l) -> In e (f :: l) -> e_nonce f <= e_nonce e.
Proof.
  intros Hs [->|He]; [lia|]. apply sorted_inv in Hs. destruct Hs as [_ Hall].
  rewrite Forall_forall in Hall. specialize (Hall e He). lia.
Qed.

Definition key (n0 : N) (e : entry) : qkey :=
  mkQ (e_id e) (t_group (e_tx e)) (e_nonce e - n0) (e_seq e).

Definition first_nonce (l : list entry) : N := match l with [] => 0 | f :: _ => e_nonce f end.

(** On an ascending list no entry is skipped: every entry yields its key, the nonce difference
    being taken from the first one. *)
Lemma account_keys_sorted l : sorted l -> account_keys l = map (key (first_nonce l)) l.
Proof.
  destruct l as [|f l]; [reflexivity|]. intros Hs. unfold account_keys. cbn [first_nonce].
  assert (Hmin : forall e, In e (f :: l) -> e_nonce f <= e_nonce e)
    by (intros e; now apply sorted_head_min).
  revert Hmin. generalize (f :: l). clear Hs. intros m Hmin.
  induction m as [|e m IH]; [reflexivity|]. cbn [flat_map map].
  destruct (e_nonce e <? e_nonce f) eqn:E.
  - apply N.ltb_lt in E. specialize (Hmin e (or_introl eq_refl)). lia.
  - cbn [app]. unfold key at 1. f_equal. apply IH. intros x Hx. apply Hmin. now right.
Qed.

Lemma keys_ids (pd : N -> list entry) u :
  (forall a, sorted (pd a)) ->
  map q_id (flat_map (fun a => account_keys (pd a)) u) = map e_id (flat_map pd u).
Proof.
  intros Hs. induction u as [|a u IH]; cbn; [reflexivity|].
  now rewrite !map_app, IH, account_keys_sorted, map_map.
Qed.

Theorem queue_order_Inv pm s g :
  Inv pm s g ->
  let q := builder_queue (s_universe s) (s_pool s) in
  NoDup q /\
  forall a e1 e2, In a (s_universe s) ->
    In e1 (p_pending (s_pool s) a) -> In e2 (p_pending (s_pool s) a) ->
    t_group (e_tx e1) = t_group (e_tx e2) -> e_nonce e1 < e_nonce e2 ->
    before_in (e_id e1) (e_id e2) q.
Proof.
  intros [_ Hu Hd [HQ HB] _]. pose proof HQ as [HA _]. cbn zeta. unfold builder_queue.
  set (keys := flat_map (fun a => account_keys (p_pending (s_pool s) a)) (s_universe s)).
  split.
  - apply (Permutation_NoDup (l := map q_id keys)).
    + apply Permutation_map. symmetry. apply q_sort_perm.
    + unfold keys. rewrite keys_ids by (intros a; apply (a_sorted _ _ _ _ _ (HA a))).
      apply (pool_ids_NoDup _ _ _ _ _ _ Hu HB (PoolQ_apart _ _ _ _ _ Hd HQ)).
      intros a. exists [], (p_parked (s_pool s) a). reflexivity.
  - intros a e1 e2 Ha He1 He2 Hg Hn. pose proof (a_sorted _ _ _ _ _ (HA a)) as Hsort.
    pose proof (account_keys_sorted _ Hsort) as Hkeys.
    destruct (p_pending (s_pool s) a) as [|f l] eqn:El; [contradiction|]. cbn [first_nonce] in Hkeys.
    pose proof (sorted_head_min f l e1 Hsort He1) as Hmin1.
    set (k1 := key (e_nonce f) e1). set (k2 := key (e_nonce f) e2).
    assert (Hin : forall e, In e (f :: l) -> In (key (e_nonce f) e) (q_sort keys)).
    { intros e He. apply (Permutation_in _ (Permutation_sym (q_sort_perm keys))). unfold keys.
      apply in_flat_map. exists a. split; [assumption|]. rewrite El, Hkeys. now apply in_map. }
    assert (Hnb : q_before k2 k1 = false).
    { destruct (q_before k2 k1) eqn:E; [|reflexivity]. apply q_before_spec in E.
      unfold k1, k2, key in E. cbn in E. lia. }
    pose proof (sorted_before_in k1 k2 (q_sort keys) (q_sort_sorted keys) (Hin e1 He1) (Hin e2 He2)
                  Hnb) as Hb.
    apply (before_in_map q_id) in Hb. exact Hb.
Qed.

Theorem queue_order : stmt_queue_order.
Proof.
  unfold stmt_queue_order. intros pmax k na ops.
  destruct (run_Inv pmax k na ops) as [g H]. exact (queue_order_Inv pmax _ g H).
Qed.
