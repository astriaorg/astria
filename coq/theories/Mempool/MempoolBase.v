(** C13 — elementary facts about the building blocks of the mempool model. *)
From Astria Require Import Mempool.MempoolSpec.

Lemma upd_same {A} (f : N -> A) k v : upd f k v k = v.
Proof. unfold upd. now rewrite N.eqb_refl. Qed.

Lemma upd_other {A} (f : N -> A) k v x : x <> k -> upd f k v x = f x.
Proof. unfold upd. intros H. apply N.eqb_neq in H. now rewrite H. Qed.

(** is [b] the updated key? every [upd _ a _ b] in the goal is simplified accordingly *)
Ltac upd_cases b a :=
  destruct (N.eq_dec b a) as [->|?];
  [rewrite ?upd_same|rewrite ?upd_other by assumption].

Lemma mem_In x l : mem x l = true <-> In x l.
Proof.
  unfold mem. rewrite existsb_exists. split.
  - intros [y [Hy He]]. apply N.eqb_eq in He. now subst.
  - intros H. exists x. split; [assumption|apply N.eqb_refl].
Qed.

Lemma mem_false x l : mem x l = false <-> ~ In x l.
Proof. rewrite <- mem_In. symmetry. apply not_true_iff_false. Qed.

Lemma set_add_In l x y : In y (set_add l x) <-> y = x \/ In y l.
Proof.
  unfold set_add. destruct (mem x l) eqn:E.
  - apply mem_In in E. split; [now right|]. intros [->|H]; assumption.
  - cbn. split; intros [H|H]; auto.
Qed.

Lemma set_remove_In l x y : In y (set_remove l x) <-> In y l /\ y <> x.
Proof.
  unfold set_remove. rewrite filter_In. rewrite negb_true_iff, N.eqb_neq. tauto.
Qed.

Lemma set_add_NoDup l x : NoDup l -> NoDup (set_add l x).
Proof.
  unfold set_add. destruct (mem x l) eqn:E; [auto|].
  intros H. constructor; [|assumption]. now apply mem_false.
Qed.

Lemma set_remove_NoDup l x : NoDup l -> NoDup (set_remove l x).
Proof. apply NoDup_filter. Qed.

Lemma fold_set_remove_In xs l y :
  In y (fold_left set_remove xs l) <-> In y l /\ ~ In y xs.
Proof.
  revert l. induction xs as [|x xs IH]; intros l; cbn.
  - tauto.
  - rewrite IH, set_remove_In. intuition congruence.
Qed.

Lemma assoc_get_Some {B} (c : list (N * B)) k v :
  assoc_get c k = Some v -> In (k, v) c.
Proof.
  unfold assoc_get. destruct (find _ c) as [[k' v']|] eqn:E; [|discriminate].
  intros H. inversion H; subst. apply find_some in E. destruct E as [Hin He].
  cbn in He. apply N.eqb_eq in He. now subst.
Qed.

Lemma assoc_get_None {B} (c : list (N * B)) k :
  assoc_get c k = None <-> forall v, ~ In (k, v) c.
Proof.
  unfold assoc_get. split.
  - destruct (find _ c) as [p|] eqn:E; [discriminate|]. intros _ v Hin.
    pose proof (find_none _ _ E _ Hin) as H. cbn in H. now rewrite N.eqb_refl in H.
  - intros H. destruct (find _ c) as [[k' v']|] eqn:E; [|reflexivity].
    apply find_some in E. destruct E as [Hin He]. cbn in He. apply N.eqb_eq in He. subst.
    exfalso. eapply H; eauto.
Qed.

Lemma assoc_get_cons {B} (c : list (N * B)) k k' v :
  assoc_get ((k', v) :: c) k = if k' =? k then Some v else assoc_get c k.
Proof. unfold assoc_get. cbn. destruct (k' =? k); reflexivity. Qed.

Lemma assoc_get_remove_other {B} (c : list (N * B)) k k' :
  k <> k' -> assoc_get (assoc_remove c k') k = assoc_get c k.
Proof.
  intros Hne. unfold assoc_get, assoc_remove. induction c as [|[x v] c IH]; cbn; [reflexivity|].
  destruct (x =? k') eqn:E1; cbn.
  - apply N.eqb_eq in E1. subst. destruct (k' =? k) eqn:E2.
    + apply N.eqb_eq in E2. congruence.
    + exact IH.
  - destruct (x =? k); [reflexivity|exact IH].
Qed.

Lemma rcache_add_get c k r k' :
  assoc_get (rcache_add c k r) k' <> None <-> (k' = k \/ assoc_get c k' <> None).
Proof.
  unfold rcache_add. destruct (assoc_get c k) eqn:E.
  - split; [now right|]. intros [->|H]; [congruence|assumption].
  - rewrite assoc_get_cons. destruct (k =? k') eqn:E2.
    + apply N.eqb_eq in E2. subst. split; [now left|discriminate].
    + apply N.eqb_neq in E2. split; [now right|]. intros [->|H]; [congruence|assumption].
Qed.

Lemma recent_add_get c k h k' :
  assoc_get (recent_add c k h) k' <> None <-> (k' = k \/ assoc_get c k' <> None).
Proof.
  unfold recent_add. rewrite assoc_get_cons. destruct (k =? k') eqn:E.
  - apply N.eqb_eq in E. subst. split; [now left|discriminate].
  - apply N.eqb_neq in E. rewrite assoc_get_remove_other by congruence.
    split; [now right|]. intros [->|H]; [congruence|assumption].
Qed.

Lemma cost_of_cons a c r asset :
  cost_of ((a, c) :: r) asset = (if a =? asset then c else 0) + cost_of r asset.
Proof. unfold cost_of. cbn. destruct (a =? asset); cbn; lia. Qed.

Lemma deduct_spec cs : forall b b',
  deduct cs b = Some b' ->
  forall asset, cost_of cs asset <= b asset /\ b' asset = b asset - cost_of cs asset.
Proof.
  induction cs as [|[a c] r IH]; intros b b' H asset.
  - cbn in H. inversion H; subst. unfold cost_of; cbn. lia.
  - cbn in H. destruct (b a <? c) eqn:E; [discriminate|]. apply N.ltb_ge in E.
    specialize (IH _ _ H asset). rewrite cost_of_cons.
    destruct (a =? asset) eqn:Ea.
    + apply N.eqb_eq in Ea. subst. rewrite upd_same in IH. lia.
    + apply N.eqb_neq in Ea. rewrite upd_other in IH by congruence. lia.
Qed.

Lemma deduct_complete cs : forall b,
  (forall asset, cost_of cs asset <= b asset) -> exists b', deduct cs b = Some b'.
Proof.
  induction cs as [|[a c] r IH]; intros b H.
  - eexists; reflexivity.
  - cbn. pose proof (H a) as Ha. rewrite cost_of_cons, N.eqb_refl in Ha.
    destruct (b a <? c) eqn:E; [apply N.ltb_lt in E; lia|].
    apply IH. intros asset. specialize (H asset). rewrite cost_of_cons in H.
    destruct (a =? asset) eqn:Ea.
    + apply N.eqb_eq in Ea. subst. rewrite upd_same. lia.
    + apply N.eqb_neq in Ea. rewrite upd_other by congruence. lia.
Qed.

Lemma total_cost_cons e l asset :
  total_cost (e :: l) asset = cost_of (e_costs e) asset + total_cost l asset.
Proof. reflexivity. Qed.

Lemma total_cost_app l1 l2 asset :
  total_cost (l1 ++ l2) asset = total_cost l1 asset + total_cost l2 asset.
Proof. unfold total_cost. now rewrite map_app, sumN_app. Qed.

Lemma deduct_entries_spec l : forall b b',
  deduct_entries l b = Some b' ->
  forall asset, total_cost l asset <= b asset /\ b' asset = b asset - total_cost l asset.
Proof.
  induction l as [|e l IH]; intros b b' H asset.
  - cbn in H. inversion H; subst. unfold total_cost; cbn. lia.
  - cbn in H. destruct (deduct (e_costs e) b) as [b1|] eqn:E; [|discriminate].
    pose proof (deduct_spec _ _ _ E asset) as [H1 H2].
    specialize (IH _ _ H asset). rewrite total_cost_cons. lia.
Qed.

Lemma deduct_entries_affordable l b :
  (exists b', deduct_entries l b = Some b') <-> affordable l b.
Proof.
  split.
  - intros [b' H] asset. now apply (deduct_entries_spec _ _ _ H).
  - revert b. induction l as [|e l IH]; intros b H.
    + eexists; reflexivity.
    + cbn. destruct (deduct_complete (e_costs e) b) as [b1 E].
      { intros asset. specialize (H asset). rewrite total_cost_cons in H. lia. }
      rewrite E. apply IH. intros asset. specialize (H asset). rewrite total_cost_cons in H.
      pose proof (deduct_spec _ _ _ E asset). lia.
Qed.

Lemma total_cost_filter_le f l asset : total_cost (filter f l) asset <= total_cost l asset.
Proof.
  induction l as [|e l IH]; cbn [filter]; [lia|]. destruct (f e); rewrite ?total_cost_cons; lia.
Qed.

Lemma affordable_filter f l b : affordable l b -> affordable (filter f l) b.
Proof. intros H asset. pose proof (total_cost_filter_le f l asset). specialize (H asset). lia. Qed.

Lemma affordable_nil b : affordable [] b.
Proof. intros asset. unfold total_cost; cbn. lia. Qed.

Lemma has_nonce_In l n : has_nonce l n = true <-> exists e, In e l /\ e_nonce e = n.
Proof.
  unfold has_nonce. rewrite existsb_exists. split; intros [e [H1 H2]]; exists e; split; auto.
  - now apply N.eqb_eq.
  - now apply N.eqb_eq.
Qed.

Lemma find_nonce_None l n : find_nonce l n = None <-> has_nonce l n = false.
Proof.
  unfold find_nonce, has_nonce. induction l as [|e l IH]; cbn; [tauto|].
  destruct (e_nonce e =? n); cbn; [split; discriminate|exact IH].
Qed.

Lemma find_nonce_Some l n x : find_nonce l n = Some x -> In x l /\ e_nonce x = n.
Proof.
  unfold find_nonce. intros H. apply find_some in H. destruct H as [H1 H2].
  split; [assumption|now apply N.eqb_eq].
Qed.

Lemma insert_sorted_perm e l : Permutation (insert_sorted e l) (e :: l).
Proof.
  induction l as [|x l IH]; cbn; [reflexivity|].
  destruct (e_nonce e <? e_nonce x); [reflexivity|]. rewrite IH. apply perm_swap.
Qed.

Lemma insert_sorted_In e l x : In x (insert_sorted e l) <-> x = e \/ In x l.
Proof.
  induction l as [|y l IH]; cbn.
  - intuition.
  - destruct (e_nonce e <? e_nonce y); cbn; [intuition|]. rewrite IH. intuition.
Qed.

Lemma insert_sorted_length e l : length (insert_sorted e l) = S (length l).
Proof. exact (Permutation_length (insert_sorted_perm e l)). Qed.

Lemma sorted_inv e l : sorted (e :: l) -> sorted l /\ Forall (fun y => e_nonce e < e_nonce y) l.
Proof. intros H. inversion H; subst. split; assumption. Qed.

Lemma insert_sorted_sorted e l :
  sorted l -> has_nonce l (e_nonce e) = false -> sorted (insert_sorted e l).
Proof.
  unfold sorted. induction l as [|y l IH]; intros Hs Hn; cbn.
  - constructor; constructor.
  - cbn in Hn. apply orb_false_iff in Hn. destruct Hn as [Hy Hn]. apply N.eqb_neq in Hy.
    apply sorted_inv in Hs. destruct Hs as [Hs Hall].
    destruct (e_nonce e <? e_nonce y) eqn:E.
    + apply N.ltb_lt in E. constructor.
      * constructor; assumption.
      * constructor; [assumption|]. eapply Forall_impl; [|exact Hall]. cbn. intros; lia.
    + apply N.ltb_ge in E. constructor.
      * now apply IH.
      * apply Forall_forall. intros x Hx. apply insert_sorted_In in Hx. destruct Hx as [->|Hx].
        -- lia.
        -- rewrite Forall_forall in Hall. now apply Hall.
Qed.

Lemma sorted_filter f l : sorted l -> sorted (filter f l).
Proof.
  unfold sorted. induction l as [|e l IH]; intros H; cbn; [constructor|].
  apply sorted_inv in H. destruct H as [Hs Hall]. destruct (f e).
  - constructor; [now apply IH|]. apply Forall_forall. intros x Hx. apply filter_In in Hx.
    rewrite Forall_forall in Hall. now apply Hall.
  - now apply IH.
Qed.

Lemma sorted_map_recost f l : sorted l -> sorted (map (recost_entry f) l).
Proof.
  unfold sorted. induction l as [|e l IH]; intros H; cbn; [constructor|].
  apply sorted_inv in H. destruct H as [Hs Hall]. constructor; [now apply IH|].
  apply Forall_forall. intros x Hx. apply in_map_iff in Hx. destruct Hx as [y [<- Hy]].
  rewrite Forall_forall in Hall. exact (Hall _ Hy).
Qed.

Lemma llen_filter_le {A} (f : A -> bool) l : llen (filter f l) <= llen l.
Proof.
  unfold llen. induction l as [|x l IH]; cbn [filter length]; [lia|].
  destruct (f x); cbn [length]; lia.
Qed.

Lemma llen_insert_sorted e l : llen (insert_sorted e l) = llen l + 1.
Proof. unfold llen. rewrite insert_sorted_length. lia. Qed.

Lemma llen_map {A B} (f : A -> B) l : llen (map f l) = llen l.
Proof. unfold llen. now rewrite map_length. Qed.

Lemma filter_none {A} (f : A -> bool) l :
  (forall y, In y l -> f y = false) -> filter f l = [].
Proof.
  induction l as [|x l IH]; intros H; cbn; [reflexivity|].
  rewrite (H x (or_introl eq_refl)). apply IH. intros y Hy. apply H. now right.
Qed.

Lemma filter_all {A} (f : A -> bool) l :
  (forall y, In y l -> f y = true) -> filter f l = l.
Proof.
  induction l as [|x l IH]; intros H; cbn; [reflexivity|].
  rewrite (H x (or_introl eq_refl)). f_equal. apply IH. intros y Hy. apply H. now right.
Qed.

Lemma NoDup_app_iff {A} (l1 l2 : list A) :
  NoDup (l1 ++ l2) <-> NoDup l1 /\ NoDup l2 /\ (forall x, In x l1 -> In x l2 -> False).
Proof.
  induction l1 as [|y l1 IH]; cbn.
  - split; [intros H; repeat split; [constructor|assumption|tauto]|tauto].
  - split.
    + intros H. inversion H as [|? ? Hy Hnd]; subst. apply IH in Hnd. destruct Hnd as [H1 [H2 H3]].
      rewrite in_app_iff in Hy. split; [constructor; tauto|]. split; [assumption|].
      intros x [<-|Hx] Hx2; [tauto|eauto].
    + intros [H1 [H2 H3]]. inversion H1 as [|? ? Hy Hnd]; subst. constructor.
      * rewrite in_app_iff. intros [H|H]; [contradiction|]. apply (H3 y); auto.
      * apply IH. split; [assumption|]. split; [assumption|]. intros x Hx. apply H3. now right.
Qed.

Lemma filter_perm {A} (f : A -> bool) l :
  Permutation l (filter f l ++ filter (fun x => negb (f x)) l).
Proof.
  induction l as [|x l IH]; cbn; [reflexivity|]. destruct (f x); cbn.
  - now constructor.
  - now apply Permutation_cons_app.
Qed.

Lemma NoDup_filter_length {A} (f : A -> N) l k :
  NoDup (map f l) -> (length (filter (fun e => (f e =? k)%N) l) <= 1)%nat.
Proof.
  induction l as [|x l IH]; intros H; cbn; [lia|].
  cbn in H. inversion H as [|? ? Hnotin Hnd]; subst. specialize (IH Hnd).
  destruct (f x =? k) eqn:E; [|assumption]. apply N.eqb_eq in E. cbn.
  assert (Hnil : filter (fun e => f e =? k) l = []).
  { apply filter_none. intros y Hy. apply N.eqb_neq. intros Hg. apply Hnotin.
    rewrite E, <- Hg. now apply in_map. }
  rewrite Hnil. cbn. lia.
Qed.
