(** C13 — one_place: what is accepted keeps a status, the reported place is the real place,
    no id is held twice. *)
From Astria Require Import Mempool.MempoolSpec Mempool.MempoolBase Mempool.MempoolOps
  Mempool.MempoolInv Mempool.MempoolLight Mempool.MempoolLight3.

Lemma has_id_In l id : has_id l id = true <-> ids_in l id.
Proof.
  unfold has_id, ids_in. rewrite existsb_exists.
  split; intros [e [H1 H2]]; exists e; split; auto; now apply N.eqb_eq.
Qed.

Section Place.
Variables (pm : N) (s : sys) (g : ghost).
Hypothesis HS : Inv pm s g.

(** the scan over the universe finds every pending entry: its account is in the universe *)
Lemma container_has_pending id :
  container_has (s_universe s) (p_pending (s_pool s)) id = true <-> in_pending (s_pool s) id.
Proof.
  destruct HS as [_ _ [_ Hall] [[HA _] _] _]. unfold container_has. rewrite existsb_exists.
  split.
  - intros [a [Ha H]]. apply has_id_In in H. destruct H as [e [H1 H2]]. exists a, e. tauto.
  - intros [a [e [H1 H2]]]. exists a. split; [|apply has_id_In; exists e; tauto].
    destruct (a_own _ _ _ _ _ (HA a) e (in_or_app _ _ _ (or_introl H1))) as [Hd [<- _]].
    now apply Hall.
Qed.

Lemma pending_not_parked id : in_pending (s_pool s) id -> in_parked (s_pool s) id -> False.
Proof.
  destruct HS as [_ _ Hd [HQ HB] _]. pose proof (PoolQ_apart _ _ _ _ _ Hd HQ) as Hap.
  intros [a [e [H1 H2]]] [a' [e' [H1' H2']]].
  assert (a = a').
  { apply (Hap a a' id); unfold aids; [rewrite <- H2|rewrite <- H2']; apply in_map, in_or_app; auto. }
  subst a'. pose proof (bf_nd _ _ _ _ HB a) as Hn. unfold aids in Hn. rewrite map_app in Hn.
  apply NoDup_app_iff in Hn. destruct Hn as [_ [_ Hn]].
  apply (Hn id); [rewrite <- H2|rewrite <- H2']; now apply in_map.
Qed.

Lemma Inv_place_consistent id : place_consistent s id.
Proof.
  destruct HS as [_ _ _ [_ HB] _]. unfold place_consistent, tx_status.
  pose proof (bf_t _ _ _ _ HB id (fun f => f)) as HT.
  destruct (mem id (p_contained (s_pool s))) eqn:Em.
  - apply mem_In in Em. apply HT in Em. destruct Em as [Hh|[]].
    destruct (container_has (s_universe s) (p_pending (s_pool s)) id) eqn:Ec.
    + apply container_has_pending in Ec. split; [assumption|]. exact (pending_not_parked id Ec).
    + assert (Hnp : ~ in_pending (s_pool s) id).
      { intros H. apply container_has_pending in H. congruence. }
      split; [|assumption]. destruct Hh as [H|H]; [contradiction|assumption].
  - apply mem_false in Em.
    assert (Hres : ~ in_pending (s_pool s) id /\ ~ in_parked (s_pool s) id).
    { split; intros H; apply Em, HT; left; [now left|now right]. }
    destruct (assoc_get (p_recent (s_pool s)) id); [exact Hres|].
    destruct (assoc_get (p_rcache (s_pool s)) id); exact Hres.
Qed.

Lemma Inv_occurrences id : (occurrences (s_universe s) (s_pool s) id <= 1)%nat.
Proof.
  destruct HS as [_ Hu Hd [HQ HB] _]. unfold occurrences. apply (NoDup_filter_length e_id).
  apply (pool_ids_NoDup _ _ _ _ _ _ Hu HB (PoolQ_apart _ _ _ _ _ Hd HQ)).
  intros a. exists [], []. now rewrite app_nil_r.
Qed.

End Place.

Theorem one_place : stmt_one_place.
Proof.
  unfold stmt_one_place. intros pmax k na ops.
  pose proof (grun_Inv pmax ops _ _ (Inv_init pmax k na)) as H.
  destruct (grun (init pmax k na) ghost0 ops) as [s g]. split; [|split].
  - intros id Hin. apply keeps_status_seen. destruct H as [_ _ _ [_ HB] _].
    now apply (bf_live _ _ _ _ HB).
  - intros id. now apply (Inv_place_consistent pmax s g).
  - intros id. now apply (Inv_occurrences pmax s g).
Qed.
