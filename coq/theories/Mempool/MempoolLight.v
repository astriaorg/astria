(** C13 — insert, remove_tx_invalid and run_maintenance preserve the invariants of MempoolInv.v;
    for each there is one lemma with everything it establishes.  Each works on one account:
    [InFlight] is the invariant while it does, and every step is a lemma about [InFlight]. *)
From Astria Require Import Base.Lists Mempool.MempoolSpec Mempool.MempoolBase Mempool.MempoolOps
  Mempool.MempoolInv.

Lemma gapfree_weaken l sh sh' : sh <= sh' -> gapfree l sh -> gapfree l sh'.
Proof. intros Hle H e He Hlt. apply H; [assumption|lia]. Qed.

Lemma gapfree_nil sh : gapfree [] sh.
Proof. intros e []. Qed.

Lemma has_nonce_filter f l n :
  has_nonce (filter f l) n = true <-> exists e, In e l /\ f e = true /\ e_nonce e = n.
Proof.
  rewrite has_nonce_In. split.
  - intros [e [H1 H2]]. apply filter_In in H1. exists e. tauto.
  - intros [e [H1 [H2 H3]]]. exists e. split; [apply filter_In; tauto|assumption].
Qed.

Lemma gapfree_filter f l sh sh' :
  sh <= sh' ->
  (forall e x, f e = true -> sh' < e_nonce e -> e_nonce x = e_nonce e - 1 -> f x = true) ->
  gapfree l sh -> gapfree (filter f l) sh'.
Proof.
  intros Hle Hf H e He Hlt. apply filter_In in He. destruct He as [He Hfe].
  assert (Hlt' : sh < e_nonce e) by lia. specialize (H e He Hlt').
  apply has_nonce_In in H. destruct H as [x [Hx Hxn]].
  apply has_nonce_filter. exists x. repeat split; eauto.
Qed.

Lemma gapfree_filter_prefix l sh n :
  gapfree l sh -> gapfree (filter (fun e => e_nonce e <? n) l) sh.
Proof.
  apply gapfree_filter; [lia|]. intros e x He _ Hx. apply N.ltb_lt in He. apply N.ltb_lt. lia.
Qed.

Lemma gapfree_filter_suffix l sh cur :
  sh <= cur -> gapfree l sh -> gapfree (filter (fun e => cur <=? e_nonce e) l) cur.
Proof.
  intros Hle. apply gapfree_filter; [assumption|]. intros e x _ Hlt Hx. apply N.leb_le. lia.
Qed.

Lemma has_nonce_insert e l n :
  has_nonce (insert_sorted e l) n = true <-> e_nonce e = n \/ has_nonce l n = true.
Proof.
  rewrite !has_nonce_In. split.
  - intros [x [H1 H2]]. apply insert_sorted_In in H1. destruct H1 as [->|H1]; [now left|right; eauto].
  - intros [H|[x [H1 H2]]].
    + exists e. split; [apply insert_sorted_In; now left|assumption].
    + exists x. split; [apply insert_sorted_In; now right|assumption].
Qed.

Lemma gapfree_insert l e cur :
  gapfree l cur -> seq_ok l (e_nonce e) cur = true ->
  gapfree (insert_sorted e l) cur.
Proof.
  intros H Hseq x Hx Hlt. apply insert_sorted_In in Hx. apply has_nonce_insert.
  destruct Hx as [->|Hx].
  - right. unfold seq_ok in Hseq. destruct (e_nonce e =? 0) eqn:E0.
    + apply N.eqb_eq in E0. lia.
    + apply orb_prop in Hseq. destruct Hseq as [Hs|Hs]; [assumption|]. apply N.eqb_eq in Hs. lia.
  - right. now apply H.
Qed.

Lemma gapfree_run_from l sh : gapfree l sh -> run_from l sh.
Proof.
  intros H n Hn Hhas m Hm Hmn.
  remember (N.to_nat (n - m)) as d eqn:Hd. revert n Hn Hhas Hmn Hd.
  induction d as [|d IH]; intros n Hn Hhas Hmn Hd.
  - assert (n = m) by lia. now subst.
  - apply has_nonce_In in Hhas. destruct Hhas as [e [He Hen]].
    assert (Hlt : sh < e_nonce e) by lia. specialize (H e He Hlt). rewrite Hen in H.
    apply (IH (n - 1)); auto; lia.
Qed.

Lemma total_cost_insert_sorted e l asset :
  total_cost (insert_sorted e l) asset = cost_of (e_costs e) asset + total_cost l asset.
Proof.
  induction l as [|x l IH]; cbn [insert_sorted]; [reflexivity|].
  destruct (e_nonce e <? e_nonce x); [reflexivity|]. rewrite !total_cost_cons, IH. lia.
Qed.

Lemma affordable_insert_sorted e l b : affordable (l ++ [e]) b -> affordable (insert_sorted e l) b.
Proof.
  intros H asset. specialize (H asset). rewrite total_cost_app in H.
  rewrite total_cost_insert_sorted. unfold total_cost at 2 in H. cbn in H. lia.
Qed.

Lemma affordable_app_l l1 l2 b : affordable (l1 ++ l2) b -> affordable l1 b.
Proof. intros H asset. specialize (H asset). rewrite total_cost_app in H. lia. Qed.

Lemma own_filter defs a lo f l : own defs a lo l -> own defs a lo (filter f l).
Proof. intros H e He. apply filter_In in He. now apply H. Qed.

Lemma own_insert defs a lo x xs l :
  own defs a lo (x :: xs) -> own defs a lo l -> own defs a lo (insert_sorted x l).
Proof.
  intros Hx Hl e He. apply insert_sorted_In in He. destruct He as [->|He]; [apply Hx; now left|auto].
Qed.

Lemma own_tail defs a lo x l : own defs a lo (x :: l) -> own defs a lo l.
Proof. intros H e He. apply H. now right. Qed.

(** [l']: what [maint_account] has made of the account list [l] when it turns to the balances,
    [rm]: the ids it has dropped *)
Record cleaned (defs : list tx) (a cur : N) (l l' : list entry) (rm : list N) : Prop := {
  cl_ids : Permutation (map e_id l) (map e_id l' ++ rm);
  cl_len : llen l' <= llen l;
  cl_own : own defs a cur l';
  cl_sorted : sorted l -> sorted l';
  cl_gap : forall sh, sh <= cur -> gapfree l sh -> gapfree l' cur }.

(** cleaning keeps the entries from [cur] on, or none; recosting changes costs only *)
Lemma clean_recost defs a lo cur now results h (on : bool) fs l keep rm :
  own defs a lo l -> clean_stale_expired l cur now results h = (keep, rm) ->
  cleaned defs a cur l (if on then map (recost_entry fs) keep else keep) (map fst rm).
Proof.
  intros Ho Ec. apply clean_stale_expired_shape in Ec. destruct Ec as [f [Hf [-> Hr]]].
  assert (Hn : forall m n, has_nonce (map (recost_entry fs) m) n = has_nonce m n).
  { intros m n. unfold has_nonce. induction m as [|e m IH]; cbn; [reflexivity|]. now rewrite IH. }
  assert (Hm : own defs a cur (filter f l) /\
               forall sh, sh <= cur -> gapfree l sh -> gapfree (filter f l) cur).
  { destruct Hf as [-> | ->].
    - split; [|intros sh; apply gapfree_filter_suffix].
      intros e He. apply filter_In in He. destruct He as [He Hc]. apply N.leb_le in Hc.
      destruct (Ho e He) as [H1 [H2 _]]. auto.
    - rewrite filter_none by reflexivity. split; [intros e []|intros _ _ _; apply gapfree_nil]. }
  destruct Hm as [M1 M2]. pose proof (llen_filter_le f l) as Hlen. pose proof (sorted_filter f l) as Hs.
  pose proof (split_ids f l) as Hids. rewrite <- Hr in Hids. clear Hr.
  set (m := filter f l) in *.
  destruct on; [|constructor; auto]. constructor.
  - now rewrite map_map.
  - now rewrite llen_map.
  - intros e He. apply in_map_iff in He. destruct He as [y [<- Hy]]. exact (M1 y Hy).
  - intros H. now apply sorted_map_recost, Hs.
  - intros sh H1 H2 e He Hlt. apply in_map_iff in He. destruct He as [y [<- Hy]]. rewrite Hn.
    exact (M2 sh H1 H2 y Hy Hlt).
Qed.

Section Operations.
Variables (u : list N) (defs : list tx) (pmax : N) (L : N -> Prop).
Hypothesis Hu : NoDup u.

(** [R] is empty except inside [run_maintenance]: the ids it untracks only at its end *)
Definition PoolInv (V : N -> view) (p : pool) (R : list N) : Prop :=
  PoolQ u defs pmax V (p_pending p) (p_parked p) /\ Books L noex p R.

(** The entries [xs] of [a] are in neither list, the ids [R] await their untracking.  [insert]
    tracks the new id only at its end, when the entry may long be in pending: meanwhile [ex] is
    [eq] of that id. *)
Definition InFlight (V : N -> view) (ex : N -> Prop) (a : N) (p : pool) (xs : list entry)
    (R : list N) : Prop :=
  PoolQ u defs pmax V (p_pending p) (p_parked p) /\
  BooksAt L ex a p (map e_id xs ++ R) /\ own defs a (v_low (V a)) xs.

Lemma InFlight_enter V a p R : defs_ok u defs -> PoolInv V p R -> InFlight V noex a p [] R.
Proof.
  intros Hd [HQ HB]. split; [exact HQ|]. split; [|intros e []].
  exact (BooksAt_enter L noex a p R (PoolQ_apart _ _ _ _ _ Hd HQ) HB).
Qed.

Lemma InFlight_leave V a p R : InFlight V noex a p [] R -> PoolInv V p R.
Proof. intros [HQ [HB _]]. split; [exact HQ|exact (BooksAt_leave L noex a p R HB)]. Qed.

Lemma InFlight_add_pending V ex a p x xs R l' :
  InFlight V ex a p (x :: xs) R ->
  pending_acct_add (p_pending p a) x (v_nonce (V a)) (v_bal (V a)) = inl l' ->
  InFlight V ex a (set_pending p (upd (p_pending p) a l')) xs R.
Proof.
  intros [HQ [HB Hx]] Hadd. apply pending_acct_add_ok in Hadd.
  destruct Hadd as [-> [Hle [Hfresh [Hseq Haff]]]].
  pose proof HQ as [HA HT]. destruct (HA a) as [Hown Hs Hg _ Hlen].
  apply own_app in Hown. destruct Hown as [O1 O2]. split; [|split].
  - apply (PoolQ_upd u defs pmax V V a (p_pending p) (p_parked p) _ _ 0 Hu HQ);
      cbn [p_pending p_parked set_pending]; [| |lia|lia].
    + intros b Hb. now rewrite upd_other.
    + rewrite upd_same. constructor; auto.
      * apply own_app. split; [now apply own_insert with (xs := xs)|assumption].
      * now apply insert_sorted_sorted.
      * now apply gapfree_insert.
      * now apply affordable_insert_sorted.
  - apply (BooksAt_put Pend L ex a p _ _ _ HB). apply insert_ids_perm.
  - exact (own_tail _ _ _ _ _ Hx).
Qed.

Lemma InFlight_add_parked V ex a p x xs R cur pk' :
  InFlight V ex a p (x :: xs) R -> parked_add u pmax (p_parked p) x cur = inl pk' ->
  InFlight V ex a (set_parked p pk') xs R.
Proof.
  intros [HQ [HB Hx]] Hadd. apply parked_add_ok in Hadd. destruct Hadd as [Hlt [l' [Hadd ->]]].
  destruct (Hx x (or_introl eq_refl)) as [_ [Hacc _]]. rewrite Hacc in Hadd |- *.
  apply parked_acct_add_ok in Hadd. destruct Hadd as [-> [H15 _]].
  pose proof HQ as [HA HT]. destruct (HA a) as [Hown Hs Hg Haff Hlen].
  apply own_app in Hown. destruct Hown as [O1 O2]. split; [|split].
  - apply (PoolQ_upd u defs pmax V V a (p_pending p) (p_parked p) _ _ 1 Hu HQ);
      cbn [p_pending p_parked set_parked]; [| |rewrite upd_same, llen_insert_sorted; lia|lia].
    + intros b Hb. now rewrite upd_other.
    + rewrite upd_same. constructor; auto.
      * apply own_app. split; [assumption|now apply own_insert with (xs := xs)].
      * rewrite llen_insert_sorted. unfold MAX_PARKED_PER_ACCOUNT in *. lia.
  - apply (BooksAt_put Park L ex a p _ _ _ HB). apply insert_ids_perm.
  - exact (own_tail _ _ _ _ _ Hx).
Qed.

Lemma InFlight_defer V ex a p x xs (rem : list (N * reason)) r :
  InFlight V ex a p (x :: xs) (map fst rem) -> InFlight V ex a p xs (map fst (rem ++ [(e_id x, r)])).
Proof.
  intros [HQ [HB Hx]]. split; [assumption|]. split; [|exact (own_tail _ _ _ _ _ Hx)].
  apply (BooksAt_perm L ex a p p _ _ HB (frame_refl a p)). apply Permutation_app_head.
  rewrite map_app. cbn [map fst app]. rewrite app_assoc. apply Permutation_cons_append.
Qed.

Lemma InFlight_untrack V ex a p x xs R r :
  InFlight V ex a p (x :: xs) R -> InFlight V ex a (untrack p (e_id x) r) xs R.
Proof.
  intros [HQ [HB Hx]]. split; [exact HQ|]. split; [|exact (own_tail _ _ _ _ _ Hx)].
  exact (BooksAt_untrack L ex a p (e_id x) (map e_id xs ++ R) r HB).
Qed.

Lemma InFlight_fold_untrack {X} (f : pool -> X -> pool) (key : X -> N) V ex a :
  (forall p x, exists r, f p x = untrack p (key x) r) ->
  forall xs p, InFlight V ex a p [] (map key xs) -> InFlight V ex a (fold_left f xs p) [] [].
Proof.
  intros Hf. apply (fold_left_rest f (fun p xs => InFlight V ex a p [] (map key xs))).
  intros p x xs [HQ [HB _]]. destruct (Hf p x) as [r ->].
  split; [exact HQ|]. split; [|intros e []].
  exact (BooksAt_untrack L ex a p (key x) (map key xs) r HB).
Qed.

Lemma InFlight_split_parked V ex a p f R :
  InFlight V ex a p [] R ->
  InFlight V ex a (set_parked p (upd (p_parked p) a (filter f (p_parked p a))))
    (filter (fun e => negb (f e)) (p_parked p a)) R.
Proof.
  intros [HQ [HB _]]. pose proof HQ as [HA HT]. destruct (HA a) as [Hown Hs Hg Haff Hlen].
  apply own_app in Hown. destruct Hown as [O1 O2]. split; [|split; [|now apply own_filter]].
  - apply (PoolQ_upd u defs pmax V V a _ _ _ _ 0 Hu HQ); cbn [p_pending p_parked set_parked];
      [|rewrite upd_same|rewrite upd_same, N.add_0_r; apply llen_filter_le|lia].
    + intros b Hb. now rewrite upd_other.
    + constructor; auto.
      * apply own_app. split; [assumption|now apply own_filter].
      * apply N.le_trans with (llen (p_parked p a)); [apply llen_filter_le|assumption].
  - apply (BooksAt_put Park L ex a p _ _ _ HB). apply filter_ids_perm.
Qed.

(** Each old list of [a] is, by ids, the new one and an outflow ([Ol], [Ok]); the outflows go to
    the entries now in flight and the deferred untrackings. *)
Lemma InFlight_replace V V' ex a p l' k' xs Ol Ok R R' :
  InFlight V ex a p [] R -> (forall b, b <> a -> V' b = V b) ->
  AInv defs a (V' a) l' k' -> own defs a (v_low (V' a)) xs ->
  llen k' <= llen (p_parked p a) ->
  Permutation (map e_id (p_pending p a)) (map e_id l' ++ Ol) ->
  Permutation (map e_id (p_parked p a)) (map e_id k' ++ Ok) ->
  Permutation (Ol ++ Ok ++ R) (map e_id xs ++ R') ->
  InFlight V' ex a (set_parked (set_pending p (upd (p_pending p) a l')) (upd (p_parked p) a k')) xs R'.
Proof.
  intros [HQ [HB _]] Hoff HA' Hx Hlen Hl Hk HO. split; [|split; [|exact Hx]].
  - apply (PoolQ_upd u defs pmax V V' a _ _ _ _ 0 Hu HQ);
      cbn [p_pending p_parked set_pending set_parked];
      [|now rewrite !upd_same|rewrite upd_same; lia|destruct HQ; lia].
    intros b Hb. rewrite !upd_other by assumption. auto.
  - assert (H1 : BooksAt L ex a (put Pend p (upd (get Pend p) a l')) (Ol ++ R)).
    { apply (BooksAt_put Pend L ex a p _ _ _ HB). cbn [get app map]. now rewrite Hl, <- app_assoc. }
    apply (BooksAt_put Park L ex a _ k' _ _ H1). cbn [get put p_parked set_pending].
    rewrite Hk, <- app_assoc. apply Permutation_app_head.
    etransitivity; [apply Permutation_app_swap_app|exact HO].
Qed.

Lemma remove_finish_Inv V a q id r rem :
  InFlight V noex a q [] rem ->
  PoolInv V (fold_left untrack_lower rem (set_rcache q (rcache_add (p_rcache q) id r))) [].
Proof.
  intros [HQq [HBq _]]. apply (InFlight_leave V a).
  apply (InFlight_fold_untrack untrack_lower (fun k => k)); [intros x k; eexists; reflexivity|].
  rewrite map_id. split; [exact HQq|]. split; [|intros e []].
  apply (BooksAt_perm L noex a q _ rem rem HBq); [|reflexivity].
  split; [intros b _; split; reflexivity|reflexivity|intros k; apply keeps_status_rcache_add].
Qed.

Lemma remove_Inv V p t r :
  defs_ok u defs -> PoolInv V p [] -> PoolInv V (remove_tx_invalid p t r) [].
Proof.
  intros Hd HP. unfold remove_tx_invalid. set (a := t_acct t).
  pose proof (InFlight_enter V a p [] Hd HP) as HW.
  set (f := fun e => e_nonce e <? t_nonce t).
  destruct (container_remove (p_pending p a) (t_nonce t)) as [[keep removed]|] eqn:E1.
  - (* the nonce is pending: its suffix goes, and all of parked *)
    apply container_remove_shape in E1. destruct E1 as [-> ->]. apply (remove_finish_Inv V a).
    pose proof HW as [[HA _] _]. destruct (HA a) as [Hown Hs Hg Haff _].
    apply own_app in Hown. destruct Hown as [O1 _].
    apply (InFlight_replace V V noex a p (filter f (p_pending p a)) [] []
             (map e_id (filter (fun e => negb (f e)) (p_pending p a))) (map e_id (p_parked p a))
             [] _ HW).
    + auto.
    + constructor.
      * apply own_app. split; [now apply own_filter|intros e []].
      * now apply sorted_filter.
      * now apply gapfree_filter_prefix.
      * now apply affordable_filter.
      * unfold llen, MAX_PARKED_PER_ACCOUNT. cbn. lia.
    + intros e [].
    + unfold llen. cbn. lia.
    + apply split_ids.
    + reflexivity.
    + now rewrite app_nil_r.
  - destruct (container_remove (p_parked p a) (t_nonce t)) as [[keep removed]|] eqn:E2;
      [|exact HP].
    apply container_remove_shape in E2. destruct E2 as [-> ->].
    rewrite <- (app_nil_r (map e_id _)). apply (remove_finish_Inv V a).
    destruct (InFlight_split_parked V noex a p f [] HW) as [HQ1 [HB1 _]].
    split; [exact HQ1|]. split; [exact HB1|intros e []].
Qed.

Lemma InFlight_show V ex a cur bal p xs R :
  InFlight V ex a p xs R -> v_nonce (V a) <= cur -> affordable (p_pending p a) bal ->
  InFlight (upd V a (mkView cur bal (v_low (V a)))) ex a p xs R.
Proof.
  intros [HQ [HB Hx]] Hle Haf. split; [|split; [exact HB|now rewrite upd_same]].
  pose proof HQ as [HA HT]. destruct (HA a) as [Ho Hs Hg _ Hl].
  apply (PoolQ_upd u defs pmax V _ a _ _ _ _ 0 Hu HQ); [|rewrite upd_same|lia|lia].
  - intros b Hb. now rewrite upd_other.
  - constructor; auto. now apply gapfree_weaken with (sh := v_nonce (V a)).
Qed.

Lemma PoolInv_show V a cur p R :
  defs_ok u defs -> PoolInv V p R -> v_nonce (V a) <= cur ->
  PoolInv (upd V a (mkView cur (v_bal (V a)) (v_low (V a)))) p R.
Proof.
  intros Hd HP Hle. apply (InFlight_leave _ a), InFlight_show; [now apply InFlight_enter|assumption|].
  destruct HP as [[HA _] _]. exact (a_aff _ _ _ _ _ (HA a)).
Qed.

Lemma InFlight_new V p e :
  defs_ok u defs -> PoolInv V p [] -> In (e_tx e) defs -> ~ In (e_id e) (p_contained p) ->
  v_low (V (e_acct e)) <= e_nonce e ->
  InFlight V (eq (e_id e)) (e_acct e) p [e] [].
Proof.
  intros Hd [HQ HB] Ht Hnc Hlo. split; [exact HQ|]. split; [|intros x [<-|[]]; auto].
  apply BooksAt_enter; [exact (PoolQ_apart _ _ _ _ _ Hd HQ)|]. cbn [map app].
  destruct HB as [B1 B2 B3 B4 B5]. constructor; auto.
  - constructor; [intros []|constructor].
  - intros id [<-|[]] H. apply Hnc. apply (B4 _ (fun f => f)). now left.
  - intros id Hne. rewrite (B4 id (fun f => f)). cbn [In]. tauto.
Qed.

Lemma InFlight_track V a p e :
  InFlight V (eq (e_id e)) a p [] [] -> In e (p_pending p a ++ p_parked p a) ->
  PoolInv V (set_contained p (set_add (p_contained p) (e_id e))) [].
Proof.
  intros [HQ [HB _]] Hin. split; [exact HQ|]. apply (BooksAt_track L a p (e_id e) HB).
  now apply (in_map e_id).
Qed.

(** [insert]'s post-condition: where the entry is, and what the account has been shown (its
    balances only when the entry went to pending) *)
Definition placed (e : entry) (p' : pool) (r : ins_out) : Prop :=
  match r with
  | IPending => In e (p_pending p' (e_acct e))
  | IParked => In e (p_parked p' (e_acct e))
  | IErr _ => True
  end.

Definition shown (V : N -> view) (a cur : N) (bal : balances) (r : ins_out) : N -> view :=
  upd V a (mkView cur (match r with IPending => bal | _ => v_bal (V a) end) (v_low (V a))).

(** the second half of [insert] *)
Lemma insert_parked_Inv V q e cur bal :
  defs_ok u defs -> PoolInv V q [] -> In (e_tx e) defs -> ~ In (e_id e) (p_contained q) ->
  v_nonce (V (e_acct e)) <= cur -> v_low (V (e_acct e)) <= e_nonce e ->
  let '(p', r) :=
    match parked_add u pmax (p_parked q) e cur with
    | inl pk' => (set_contained (set_parked q pk') (set_add (p_contained q) (e_id e)), IParked)
    | inr err => (q, IErr err)
    end in
  PoolInv (shown V (e_acct e) cur bal r) p' [] /\ placed e p' r.
Proof.
  intros Hd HP Ht Hnc Hsn Hlo. set (a := e_acct e).
  destruct (parked_add u pmax (p_parked q) e cur) as [pk'|err] eqn:Ek;
    [|split; [now apply PoolInv_show|exact I]].
  assert (Hin : In e (p_parked (set_parked q pk') a)).
  { apply parked_add_ok in Ek. destruct Ek as [_ [l' [Ek ->]]].
    apply parked_acct_add_ok in Ek. destruct Ek as [-> _]. cbn. rewrite upd_same.
    apply insert_sorted_In. now left. }
  split; [|exact Hin]. apply (InFlight_track _ a (set_parked q pk') e); [|now apply in_or_app; right].
  apply InFlight_add_parked with (x := e) (cur := cur); [|exact Ek].
  apply InFlight_show; [now apply InFlight_new|assumption|].
  destruct HP as [[HA _] _]. exact (a_aff _ _ _ _ _ (HA a)).
Qed.

Lemma insert_Inv V p t cur bal cs :
  defs_ok u defs -> PoolInv V p [] -> In t defs -> ~ In (t_id t) (p_contained p) ->
  v_nonce (V (t_acct t)) <= cur -> v_low (V (t_acct t)) <= t_nonce t ->
  let '(p', r) := insert u pmax p t cur bal cs in
  PoolInv (shown V (t_acct t) cur bal r) p' [] /\ placed (mkEntry t cs (p_seq p) (p_now p)) p' r.
Proof.
  intros Hd [HQ HB] Ht Hnc Hsn Hlo. unfold insert.
  set (e := mkEntry t cs (p_seq p) (p_now p)). set (q := set_seq p (p_seq p + 1)).
  set (a := t_acct t) in *.
  assert (HP : PoolInv V q []).
  { split; [exact HQ|]. apply (Books_frame L L noex p q [] HB); auto. exact (bf_live _ _ _ _ HB). }
  destruct (pending_acct_add (p_pending q a) e cur bal) as [l'|err] eqn:Ea0.
  2:{ pose proof (PoolInv_show V a cur q [] Hd HP Hsn) as Hrefused.
      pose proof (insert_parked_Inv V q e cur bal Hd HP Ht Hnc Hsn Hlo) as Hparked.
      destruct err; try exact (conj Hrefused I); exact Hparked. }
  pose proof (pending_acct_add_ok _ _ _ _ _ Ea0) as [El [_ [_ [_ Haffe]]]].
  set (p1 := set_pending q (upd (p_pending q) a l')).
  destruct (insert_promotables_shape (U32_MAX <=? t_nonce t) (p_parked p1 a) (t_nonce t + 1)
              (subtract_contained (p_pending p1 a) bal)) as [f4 Hf4].
  rewrite Hf4. unfold shown. set (V' := upd V a _).
  assert (EV : V' a = mkView cur bal (v_low (V a))) by apply upd_same.
  (* the entry goes into pending, its successors leave parked ... *)
  assert (HW1 : InFlight V' (eq (e_id e)) a p1 [] []).
  { apply InFlight_add_pending with (x := e); [|now rewrite EV].
    apply InFlight_show; [now apply (InFlight_new V q e)|assumption|].
    exact (affordable_app_l _ _ _ Haffe). }
  apply (InFlight_split_parked V' _ a p1 f4) in HW1.
  (* ... and are re-inserted, the new entry staying where it is *)
  assert (Hin1 : In e (p_pending p1 a)).
  { cbn. rewrite upd_same, El. apply insert_sorted_In. now left. }
  destruct (fold_left_rest (promote_in_insert cur bal a)
              (fun p xs => InFlight V' (eq (e_id e)) a p xs [] /\ In e (p_pending p a)))
    with (2 := conj HW1 Hin1) as [HW3 Hin3].
  - intros p0 x xs [HW Hin]. unfold promote_in_insert.
    destruct (pending_acct_add (p_pending p0 a) x cur bal) as [l0|] eqn:Hadd;
      [split|split; [now apply InFlight_untrack|exact Hin]].
    + apply InFlight_add_pending with (x := x); [exact HW|now rewrite EV].
    + apply pending_acct_add_ok in Hadd. destruct Hadd as [-> _]. cbn. rewrite upd_same.
      apply insert_sorted_In. now right.
  - split; [|exact Hin3]. apply (InFlight_track V' a _ e HW3). apply in_or_app. now left.
Qed.

(** what the chain shows of an account at maintenance; nothing below its nonce survives *)
Definition cview (ch : chain) (a : N) : view := mkView (c_nonce ch a) (c_bal ch a) (c_nonce ch a).

Lemma maint_account_Inv ch recost results h V acc a :
  defs_ok u defs -> PoolInv V (m_pool acc) (map fst (m_removed acc)) ->
  v_nonce (V a) <= c_nonce ch a ->
  let acc' := maint_account u pmax ch recost results h acc a in
  PoolInv (upd V a (cview ch a)) (m_pool acc') (map fst (m_removed acc')).
Proof.
  intros Hd HP Hsn. cbn zeta. unfold maint_account.
  set (p := m_pool acc) in *. set (cur := c_nonce ch a) in *. set (bal := c_bal ch a).
  set (V1 := upd V a (cview ch a)).
  assert (EV : V1 a = mkView cur bal cur) by apply upd_same.
  pose proof (InFlight_enter V a p _ Hd HP) as HW. pose proof HW as [[HA _] _].
  destruct (HA a) as [Hown Hs Hg _ Hlen]. apply own_app in Hown. destruct Hown as [O1 O2].
  destruct (clean_stale_expired (p_pending p a) cur (p_now p) results h) as [pend1 rem1] eqn:Ec1.
  destruct (clean_stale_expired (p_parked p a) cur (p_now p) results h) as [park1 rem2] eqn:Ec2.
  destruct (clean_recost defs a _ cur _ _ _ recost (c_fees ch) _ _ _ O1 Ec1) as [Ei1 _ Q1 Q2 Q3].
  destruct (clean_recost defs a _ cur _ _ _ recost (c_fees ch) _ _ _ O2 Ec2) as [Ei2 El2 R1 _ _].
  set (pend2 := if recost then map (recost_entry (c_fees ch)) pend1 else pend1) in *.
  set (park2 := if recost then map (recost_entry (c_fees ch)) park1 else park1) in *.
  specialize (Q2 Hs). specialize (Q3 _ Hsn Hg).
  rewrite (find_demotables_eq pend2 bal). set (f3 := fun e => e_nonce e <? demo_scan pend2 bal 0).
  change (filter (fun e => negb (e_nonce e <? demo_scan pend2 bal 0)) pend2)
    with (filter (fun e => negb (f3 e)) pend2).
  cbv beta iota zeta.
  set (rem := m_removed acc ++ rem1 ++ rem2).
  set (p1 := set_parked (set_pending p (upd (p_pending p) a (filter f3 pend2)))
                        (upd (p_parked p) a park2)).
  (* pending is what the balances pay for, the rest of it is in flight, and what cleaning dropped
     awaits its untracking *)
  assert (HW1 : InFlight V1 noex a p1 (filter (fun e => negb (f3 e)) pend2) (map fst rem)).
  { unfold rem. rewrite !map_app.
    apply (InFlight_replace V V1 noex a p _ _ _
             (map e_id (filter (fun e => negb (f3 e)) pend2) ++ map fst rem1) (map fst rem2)
             _ _ HW).
    - intros b Hb. unfold V1. now rewrite upd_other.
    - rewrite EV. constructor; cbn [v_low v_nonce v_bal].
      + apply own_app. split; [now apply own_filter|assumption].
      + now apply sorted_filter.
      + now apply gapfree_filter_prefix.
      + apply demo_scan_affordable; [assumption|intros; lia].
      + now apply N.le_trans with (llen (p_parked p a)).
    - rewrite EV. now apply own_filter.
    - exact El2.
    - rewrite Ei1, (split_ids f3 pend2), <- app_assoc. reflexivity.
    - exact Ei2.
    - rewrite <- !app_assoc. apply Permutation_app_head.
      rewrite (app_assoc (map fst rem1)). apply Permutation_app_comm. }
  destruct (filter (fun e => negb (f3 e)) pend2) as [|d demo] eqn:Edemo.
  - (* they pay for all of it: parked entries that follow on may join *)
    destruct (find_promotables_shape park2
                match pending_nonce (filter f3 pend2) with Some n => n | None => cur end
                (subtract_contained (filter f3 pend2) bal)) as [f4 Hf4].
    rewrite Hf4. apply (InFlight_split_parked V1 noex a p1 f4) in HW1.
    assert (Ek : p_parked p1 a = park2) by (cbn; apply upd_same). rewrite Ek in HW1.
    pose proof (fun H => fold_left_rest (promote_in_maint cur bal a)
                  (fun pr xs => InFlight V1 noex a (fst pr) xs (map fst (snd pr))) H _ (_, rem) HW1)
      as Hloop.
    destruct (fold_left _ _ (_, rem)) as [p3 rem3].
    apply (InFlight_leave V1 a p3 (map fst rem3)), Hloop.
    intros [p0 rem0] x xs HW0. unfold promote_in_maint.
    destruct (pending_acct_add (p_pending p0 a) x cur bal) eqn:Hadd; [|now apply InFlight_defer].
    apply InFlight_add_pending with (x := x); [exact HW0|now rewrite EV].
  - (* the balances do not pay for all of pending: the rest goes to parked *)
    pose proof (fun H => fold_left_rest (demote_in_maint u pmax cur)
                  (fun pr xs => InFlight V1 noex a (fst pr) xs (map fst (snd pr))) H _ (_, rem) HW1)
      as Hloop.
    destruct (fold_left _ _ (p1, rem)) as [p3 rem3].
    apply (InFlight_leave V1 a p3 (map fst rem3)), Hloop.
    intros [p0 rem0] x xs HW0. unfold demote_in_maint.
    destruct (parked_add u pmax (p_parked p0) x cur) eqn:Hadd; [|now apply InFlight_defer].
    now apply InFlight_add_parked with (x := x) (cur := cur).
Qed.

Lemma fold_maint_Inv ch recost results h : forall accts V acc,
  defs_ok u defs -> PoolInv V (m_pool acc) (map fst (m_removed acc)) ->
  (forall a, v_nonce (V a) <= c_nonce ch a) ->
  let acc' := fold_left (maint_account u pmax ch recost results h) accts acc in
  exists V', PoolInv V' (m_pool acc') (map fst (m_removed acc')) /\
    forall b, V' b = cview ch b \/ (~ In b accts /\ V' b = V b).
Proof.
  induction accts as [|a accts IH]; intros V acc Hd HM HV; cbn [fold_left].
  - exists V. split; [assumption|]. intros b. right. split; [intros []|reflexivity].
  - destruct (IH (upd V a (cview ch a)) (maint_account u pmax ch recost results h acc a) Hd)
      as [V' [HM' HV']].
    + now apply maint_account_Inv.
    + intros b. upd_cases b a; [cbn; lia|apply HV].
    + exists V'. split; [exact HM'|]. intros b. destruct (HV' b) as [H|[Hn H]]; [now left|].
      rewrite H. upd_cases b a; [now left|right]. split; [|reflexivity].
      intros [E|E]; [congruence|contradiction].
Qed.

Lemma run_maintenance_Inv ch V p recost results h :
  defs_ok u defs -> PoolInv V p [] -> (forall a, v_nonce (V a) <= c_nonce ch a) ->
  PoolInv (cview ch) (fst (run_maintenance u pmax ch p recost results h)) [].
Proof.
  intros Hd HP HV. unfold run_maintenance. cbn [fst].
  destruct (fold_maint_Inv ch recost results h u V (mkMacc p [] 0) Hd HP HV)
    as [V' [[HQ' HB'] HV']].
  apply (fold_left_inv (fun q => PoolInv (cview ch) q []) (recent_add_pool h)).
  - intros q k [HQ HB]. split; [exact HQ|]. apply (Books_frame L L noex q _ [] HB); auto.
    intros id Hid. apply keeps_status_recent_add. exact (bf_live _ _ _ _ HB id Hid).
  - apply (InFlight_leave _ 0).
    apply (InFlight_fold_untrack untrack_pair fst); [intros q x; eexists; reflexivity|].
    apply InFlight_enter; [assumption|]. split; [|exact HB'].
    apply (PoolQ_universe u defs pmax V'); auto. intros a Ha.
    destruct (HV' a) as [H|[Hn _]]; [now symmetry|contradiction].
Qed.

End Operations.
