(** C13 — what the parts of the pool operations do: the adds inverted, the cleaning and
    splitting steps as filters of their input, the parked count under a change of one account,
    the status an id keeps. *)
From Astria Require Import Base.Lists Mempool.MempoolSpec Mempool.MempoolBase.

Lemma pending_acct_add_ok l e cur bal l' :
  pending_acct_add l e cur bal = inl l' ->
  l' = insert_sorted e l /\ cur <= e_nonce e /\ has_nonce l (e_nonce e) = false /\
  seq_ok l (e_nonce e) cur = true /\ affordable (l ++ [e]) bal.
Proof.
  unfold pending_acct_add. destruct (e_nonce e <? cur) eqn:E1; [discriminate|].
  apply N.ltb_ge in E1.
  destruct (find_nonce l (e_nonce e)) eqn:E2; [discriminate|]. apply find_nonce_None in E2.
  destruct (seq_ok l (e_nonce e) cur) eqn:E3; cbn [negb]; [|discriminate].
  destruct (deduct_entries (l ++ [e]) bal) eqn:E4; [|discriminate].
  intros H. inversion H; subst. repeat split; auto.
  apply deduct_entries_affordable. eauto.
Qed.

Lemma parked_acct_add_ok l e cur l' :
  parked_acct_add l e cur = inl l' ->
  l' = insert_sorted e l /\ llen l < MAX_PARKED_PER_ACCOUNT /\ cur <= e_nonce e /\
  has_nonce l (e_nonce e) = false.
Proof.
  unfold parked_acct_add. destruct (MAX_PARKED_PER_ACCOUNT <=? llen l) eqn:E0; [discriminate|].
  apply N.leb_gt in E0.
  destruct (e_nonce e <? cur) eqn:E1; [discriminate|]. apply N.ltb_ge in E1.
  destruct (find_nonce l (e_nonce e)) eqn:E2; [discriminate|]. apply find_nonce_None in E2.
  intros H. inversion H; subst. auto.
Qed.

Lemma parked_add_ok u pmax pk e cur pk' :
  parked_add u pmax pk e cur = inl pk' ->
  parked_len u pk < pmax /\
  exists l', parked_acct_add (pk (e_acct e)) e cur = inl l' /\ pk' = upd pk (e_acct e) l'.
Proof.
  unfold parked_add. destruct (pmax <=? parked_len u pk) eqn:E; [discriminate|].
  apply N.leb_gt in E. destruct (parked_acct_add (pk (e_acct e)) e cur) eqn:E2; [|discriminate].
  intros H. inversion H; subst. eauto.
Qed.

Lemma last_nonce_max l n :
  sorted l -> last_nonce l = Some n -> forall e, In e l -> e_nonce e <= n.
Proof.
  unfold sorted. induction l as [|x l IH]; intros Hs Hl e He; [discriminate|].
  apply sorted_inv in Hs. destruct Hs as [Hs Hall]. destruct l as [|y l].
  - cbn in Hl. inversion Hl; subst. destruct He as [->|[]]. lia.
  - cbn [last_nonce] in Hl. destruct He as [->|He].
    + assert (Hy : e_nonce y <= n) by (apply (IH Hs Hl); now left).
      rewrite Forall_forall in Hall. specialize (Hall y (or_introl eq_refl)). lia.
    + now apply (IH Hs Hl).
Qed.

(** The entries below the split are the ones whose costs the scan deducted: each deduction
    leaves at least the cost of what is kept later, and an entry the scan stopped at is not below
    the split, the list being ascending. *)
Lemma demo_scan_affordable l : forall b sp0,
  sorted l -> (forall e, In e l -> sp0 <= e_nonce e) ->
  affordable (filter (fun e => e_nonce e <? demo_scan l b sp0) l) b.
Proof.
  induction l as [|e l IH]; intros b sp0 Hs Hlo; [apply affordable_nil|].
  apply sorted_inv in Hs. destruct Hs as [Hs Hall]. rewrite Forall_forall in Hall.
  cbn [demo_scan]. destruct (deduct (e_costs e) b) as [b'|] eqn:E.
  - set (s := demo_scan l b' _).
    assert (IH' : affordable (filter (fun x => e_nonce x <? s) l) b').
    { apply IH; [assumption|]. intros x Hx. specialize (Hall x Hx). unfold saturating_add. lia. }
    intros asset. pose proof (deduct_spec _ _ _ E asset) as [H1 H2]. specialize (IH' asset).
    cbn [filter]. destruct (e_nonce e <? s); rewrite ?total_cost_cons; lia.
  - rewrite filter_none; [apply affordable_nil|]. intros x Hx. apply N.ltb_ge. now apply Hlo.
Qed.

Lemma find_demotables_eq l b :
  find_demotables l b = (filter (fun e => e_nonce e <? demo_scan l b 0) l,
                         filter (fun e => negb (e_nonce e <? demo_scan l b 0)) l).
Proof. unfold find_demotables. f_equal. apply filter_ext. intros e. apply N.leb_antisym. Qed.

(** promoted = the part NOT satisfying [f], kept = the part satisfying [f] *)
Lemma find_promotables_shape l t b :
  exists f, find_promotables l t b = (filter (fun e => negb (f e)) l, filter f l).
Proof.
  unfold find_promotables. destruct (promo_scan l t b 0) as [sp|].
  - exists (fun e => sp <=? e_nonce e). f_equal. apply filter_ext. intros e. apply N.ltb_antisym.
  - exists (fun _ => false). f_equal.
    + symmetry. now apply filter_all.
    + symmetry. now apply filter_none.
Qed.

Lemma clean_stale_expired_shape l cur now results h keep rm :
  clean_stale_expired l cur now results h = (keep, rm) ->
  exists f, (f = (fun e => cur <=? e_nonce e) \/ f = (fun _ => false)) /\
    keep = filter f l /\
    Permutation (map fst rm) (map e_id (filter (fun e => negb (f e)) l)).
Proof.
  unfold clean_stale_expired. cbv zeta. set (g := fun e => cur <=? e_nonce e).
  assert (Hstale : filter (fun e => e_nonce e <? cur) l = filter (fun e => negb (g e)) l).
  { apply filter_ext. intros e. unfold g. rewrite N.leb_antisym. now rewrite negb_involutive. }
  rewrite Hstale.
  set (rs := map (fun e => (e_id e, if mem (e_id e) results then RIncl h else RStale))
                 (filter (fun e => negb (g e)) l)).
  assert (Hrs : map fst rs = map e_id (filter (fun e => negb (g e)) l)).
  { unfold rs. rewrite map_map. reflexivity. }
  assert (Hkeep : forall rm0, (filter g l, rs) = (keep, rm0) -> exists f,
            (f = g \/ f = (fun _ => false)) /\ keep = filter f l /\
            Permutation (map fst rm0) (map e_id (filter (fun e => negb (f e)) l))).
  { intros rm0 H. inversion H; subst. exists g. rewrite Hrs. auto. }
  destruct (filter g l) as [|f0 rest] eqn:Ek; [apply Hkeep|].
  destruct (TX_TTL <? now - e_born f0); [|apply Hkeep].
  intros H. inversion H; subst. exists (fun _ => false). split; [now right|]. split.
  - symmetry. now apply filter_none.
  - rewrite map_app, Hrs. cbn [map fst]. rewrite map_map. cbn [fst].
    change (e_id f0 :: map (fun x => e_id x) rest) with (map e_id (f0 :: rest)).
    rewrite <- Ek, <- map_app, (filter_all (fun _ : entry => negb false) l) by reflexivity.
    apply Permutation_map. rewrite Permutation_app_comm. symmetry. apply filter_perm.
Qed.

Lemma container_remove_shape l n keep removed :
  container_remove l n = Some (keep, removed) ->
  keep = filter (fun e => e_nonce e <? n) l /\
  removed = map e_id (filter (fun e => negb (e_nonce e <? n)) l).
Proof.
  unfold container_remove. destruct (has_nonce l n); [|discriminate]. intros H.
  inversion H; subst. split; [reflexivity|]. f_equal. apply filter_ext. intros e.
  apply N.leb_antisym.
Qed.

Lemma insert_promotables_shape (big : bool) l t b :
  exists f, (if big then ([], l) else find_promotables l t b) =
            (filter (fun e => negb (f e)) l, filter f l).
Proof.
  destruct big; [|apply find_promotables_shape]. exists (fun _ => true). f_equal.
  - symmetry. now apply filter_none.
  - symmetry. now apply filter_all.
Qed.

Lemma parked_len_cons b u pk : parked_len (b :: u) pk = llen (pk b) + parked_len u pk.
Proof. reflexivity. Qed.

Lemma parked_len_agree u pk pk' :
  (forall b, In b u -> pk' b = pk b) -> parked_len u pk' = parked_len u pk.
Proof. intros H. unfold parked_len. f_equal. apply map_ext_in. intros b Hb. now rewrite H. Qed.

Lemma parked_len_change u pk pk' a d :
  NoDup u -> (forall b, b <> a -> pk' b = pk b) -> llen (pk' a) <= llen (pk a) + d ->
  parked_len u pk' <= parked_len u pk + d.
Proof.
  intros Hnd Hfr Hle. induction u as [|b u IH]; [unfold parked_len; cbn; lia|].
  inversion Hnd as [|? ? Hb Hnd']; subst. rewrite !parked_len_cons.
  destruct (N.eq_dec b a) as [->|Hne].
  - rewrite (parked_len_agree u pk pk'); [lia|]. intros b Hin. apply Hfr. congruence.
  - rewrite (Hfr b Hne). specialize (IH Hnd'). lia.
Qed.

Definition keeps_status (p : pool) (id : N) : Prop :=
  In id (p_contained p) \/ assoc_get (p_rcache p) id <> None \/ assoc_get (p_recent p) id <> None.

Lemma keeps_status_seen u p id : keeps_status p id -> tx_status u p id <> None.
Proof.
  unfold keeps_status, tx_status. intros H. destruct (mem id (p_contained p)) eqn:E; [discriminate|].
  apply mem_false in E. destruct H as [H|[H|H]]; [contradiction| |].
  - destruct (assoc_get (p_recent p) id); [discriminate|].
    destruct (assoc_get (p_rcache p) id); [discriminate|contradiction].
  - destruct (assoc_get (p_recent p) id); [discriminate|contradiction].
Qed.

Lemma keeps_status_rcache_add p k r id :
  keeps_status p id -> keeps_status (set_rcache p (rcache_add (p_rcache p) k r)) id.
Proof.
  intros [H|[H|H]]; unfold keeps_status; cbn; auto. right. left. apply rcache_add_get. now right.
Qed.

Lemma keeps_status_untrack p k r id : keeps_status p id -> keeps_status (untrack p k r) id.
Proof.
  unfold keeps_status, untrack. cbn. intros [H|[H|H]]; auto.
  - destruct (N.eq_dec id k) as [->|Hne].
    + right. left. apply rcache_add_get. now left.
    + left. apply set_remove_In. auto.
  - right. left. apply rcache_add_get. now right.
Qed.

Lemma keeps_status_recent_add h p k id : keeps_status p id -> keeps_status (recent_add_pool h p k) id.
Proof.
  unfold recent_add_pool, keeps_status. cbn. intros [H|[H|H]]; auto.
  right. right. apply recent_add_get. now right.
Qed.

