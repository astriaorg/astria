(** C13 — the invariant of the pool, in two halves that do not mention each other.  [Books] ties
    the tracked set to the lists through ids only; [BooksAt] is the same seen from the account an
    operation works on, with the ids [I] of entries in flight and of deferred untrackings: every
    move of an entry permutes the ids of that account's lists followed by [I], the other
    steps untrack the head of [I] or track the new id.  [PoolQ] is about the lists of each
    account ([AInv]) alone. *)
From Astria Require Import Mempool.MempoolSpec Mempool.MempoolBase Mempool.MempoolOps.

Definition held (p : pool) (id : N) : Prop := in_pending p id \/ in_parked p id.

Definition defs_ok (u : list N) (defs : list tx) : Prop :=
  NoDup (map t_id defs) /\
  forall t, In t defs -> In (t_acct t) u.

Lemma same_id_same_tx defs t1 t2 :
  NoDup (map t_id defs) -> In t1 defs -> In t2 defs -> t_id t1 = t_id t2 -> t1 = t2.
Proof.
  induction defs as [|t defs IH]; intros Hnd H1 H2 Hid; [contradiction|].
  cbn in Hnd. inversion Hnd as [|? ? Hnotin Hnd']; subst.
  destruct H1 as [->|H1], H2 as [->|H2]; auto.
  - exfalso. apply Hnotin. rewrite Hid. now apply in_map.
  - exfalso. apply Hnotin. rewrite <- Hid. now apply in_map.
Qed.

Definition ids_in (l : list entry) (id : N) : Prop := exists e, In e l /\ e_id e = id.

Lemma ids_in_nil id : ~ ids_in [] id.
Proof. intros [e [[] _]]. Qed.

Definition aids (p : pool) (a : N) : list N := map e_id (p_pending p a ++ p_parked p a).

Definition held_else (p : pool) (a id : N) : Prop := exists b, b <> a /\ In id (aids p b).

Lemma held_aids p id : held p id <-> exists a, In id (aids p a).
Proof.
  unfold held, in_pending, in_parked, aids. split.
  - intros [[a [e [H1 H2]]]|[a [e [H1 H2]]]]; exists a; rewrite <- H2; apply in_map, in_or_app; auto.
  - intros [a H]. apply in_map_iff in H. destruct H as [e [H2 H1]]. apply in_app_or in H1.
    destruct H1; [left|right]; exists a, e; auto.
Qed.

Lemma held_split p a id : held p id <-> In id (aids p a) \/ held_else p a id.
Proof.
  rewrite held_aids. unfold held_else. split.
  - intros [b H]. destruct (N.eq_dec b a) as [->|Hne]; [now left|right; eauto].
  - intros [H|[b [_ H]]]; eauto.
Qed.

Inductive side := Pend | Park.

Definition get (sd : side) (p : pool) : N -> list entry :=
  match sd with Pend => p_pending p | Park => p_parked p end.

Definition put (sd : side) (p : pool) (v : N -> list entry) : pool :=
  match sd with Pend => set_pending p v | Park => set_parked p v end.

Record frame (a : N) (p p' : pool) : Prop := mkFrame {
  f_else : forall b, b <> a -> p_pending p' b = p_pending p b /\ p_parked p' b = p_parked p b;
  f_cont : p_contained p' = p_contained p;
  f_status : forall id, keeps_status p id -> keeps_status p' id }.

Lemma frame_refl a p : frame a p p.
Proof. split; auto. Qed.

Lemma frame_put sd a p l' : frame a p (put sd p (upd (get sd p) a l')).
Proof.
  destruct sd; (split; [intros b Hb; cbn; now rewrite upd_other|reflexivity|exact (fun _ H => H)]).
Qed.

(** [L]: the ids that must keep a status; ids satisfying [ex] are exempt from [b_t] *)
Definition noex : N -> Prop := fun _ => False.

Record BooksAt (L ex : N -> Prop) (a : N) (p : pool) (I : list N) : Prop := mkBooksAt {
  b_ids : NoDup (aids p a ++ I);
  b_else : forall b, b <> a -> NoDup (aids p b);
  b_sep : forall id, held_else p a id -> ~ In id (aids p a ++ I);
  b_t : forall id, ~ ex id ->
        (In id (p_contained p) <-> held_else p a id \/ In id (aids p a ++ I));
  b_live : forall id, L id -> keeps_status p id }.

Lemma BooksAt_perm L ex a p p' I I' :
  BooksAt L ex a p I -> frame a p p' -> Permutation (aids p a ++ I) (aids p' a ++ I') ->
  BooksAt L ex a p' I'.
Proof.
  intros [Hn He Hs Ht Hl] [Fe Fc Fk] HP.
  assert (Hb : forall b, b <> a -> aids p' b = aids p b).
  { intros b Hb. unfold aids. now destruct (Fe b Hb) as [-> ->]. }
  assert (Hh : forall id, held_else p' a id <-> held_else p a id).
  { intros id. unfold held_else.
    split; intros [b [Hne H]]; exists b; (split; [assumption|]); [rewrite <- Hb|rewrite Hb]; auto. }
  assert (Hin : forall id, In id (aids p' a ++ I') <-> In id (aids p a ++ I)).
  { intros id. split; apply Permutation_in; [symmetry|]; exact HP. }
  constructor.
  - exact (Permutation_NoDup HP Hn).
  - intros b Hne. rewrite Hb by assumption. now apply He.
  - intros id. rewrite Hh, Hin. apply Hs.
  - intros id Hex. rewrite Fc, Hh, Hin. now apply Ht.
  - intros id Hid. apply Fk. now apply Hl.
Qed.

Lemma BooksAt_put sd L ex a p l' I I' :
  BooksAt L ex a p I ->
  Permutation (map e_id (get sd p a) ++ I) (map e_id l' ++ I') ->
  BooksAt L ex a (put sd p (upd (get sd p) a l')) I'.
Proof.
  intros HB HP. apply (BooksAt_perm L ex a p _ I I' HB (frame_put sd a p l')).
  unfold aids.
  destruct sd; cbn [put get p_pending p_parked set_pending set_parked] in *;
    rewrite upd_same, !map_app, <- !app_assoc.
  - etransitivity; [apply Permutation_app_swap_app|].
    etransitivity; [apply Permutation_app_head, HP|]. apply Permutation_app_swap_app.
  - apply Permutation_app_head, HP.
Qed.

Lemma BooksAt_untrack L ex a p id I r :
  BooksAt L ex a p (id :: I) -> BooksAt L ex a (untrack p id r) I.
Proof.
  intros [Hn He Hs Ht Hl]. pose proof (NoDup_remove_2 _ _ _ Hn) as Hid.
  assert (Hsub : forall k, In k (aids p a ++ I) -> In k (aids p a ++ id :: I)).
  { intros k. rewrite !in_app_iff. cbn. tauto. }
  constructor.
  - exact (NoDup_remove_1 _ _ _ Hn).
  - exact He.
  - intros k Hk Hin. exact (Hs k Hk (Hsub k Hin)).
  - intros k Hex. unfold untrack. cbn [p_contained set_rcache set_contained].
    change (held_else (set_rcache _ _) a k) with (held_else p a k).
    change (aids (set_rcache _ _) a) with (aids p a).
    rewrite set_remove_In, (Ht k Hex). split.
    + intros [[H|H] Hne]; [now left|right]. apply in_app_or in H. apply in_or_app.
      destruct H as [H|[H|H]]; [now left|congruence|now right].
    + intros [H|H]; (split; [auto|intros ->]).
      * apply (Hs id H). apply in_or_app. right. now left.
      * now apply Hid.
  - intros k Hk. apply keeps_status_untrack. now apply Hl.
Qed.

Lemma insert_ids_perm x l I :
  Permutation (map e_id l ++ e_id x :: I) (map e_id (insert_sorted x l) ++ I).
Proof. rewrite (insert_sorted_perm x l). cbn [map app]. symmetry. apply Permutation_middle. Qed.

Lemma split_ids f l :
  Permutation (map e_id l) (map e_id (filter f l) ++ map e_id (filter (fun e => negb (f e)) l)).
Proof. rewrite <- map_app. apply Permutation_map, filter_perm. Qed.

Lemma filter_ids_perm f l I :
  Permutation (map e_id l ++ I)
              (map e_id (filter f l) ++ map e_id (filter (fun e => negb (f e)) l) ++ I).
Proof. rewrite app_assoc. apply Permutation_app_tail, split_ids. Qed.

Record Books (L ex : N -> Prop) (p : pool) (I : list N) : Prop := mkBooks {
  bf_nd : forall a, NoDup (aids p a);
  bf_I : NoDup I;
  bf_sep : forall id, In id I -> ~ held p id;
  bf_t : forall id, ~ ex id -> (In id (p_contained p) <-> held p id \/ In id I);
  bf_live : forall id, L id -> keeps_status p id }.

Definition apart (p : pool) : Prop :=
  forall a b id, In id (aids p a) -> In id (aids p b) -> a = b.

Lemma BooksAt_enter L ex a p I : apart p -> Books L ex p I -> BooksAt L ex a p I.
Proof.
  intros Hap [Hnd HI Hs Ht Hl]. constructor.
  - apply NoDup_app_iff. split; [apply Hnd|]. split; [assumption|].
    intros id H1 H2. apply (Hs id H2). apply held_aids. eauto.
  - intros b _. apply Hnd.
  - intros id [b [Hb H]] Hin. apply in_app_or in Hin. destruct Hin as [Hin|Hin].
    + apply Hb. eapply Hap; eauto.
    + apply (Hs id Hin). apply held_aids. eauto.
  - intros id Hex. rewrite (Ht id Hex), (held_split p a), in_app_iff. tauto.
  - assumption.
Qed.

Lemma BooksAt_leave L ex a p I : BooksAt L ex a p I -> Books L ex p I.
Proof.
  intros [Hn He Hs Ht Hl]. pose proof Hn as Hn'. apply NoDup_app_iff in Hn'.
  destruct Hn' as [N1 [N2 N3]]. constructor.
  - intros b. destruct (N.eq_dec b a) as [->|Hne]; [assumption|now apply He].
  - assumption.
  - intros id Hid Hh. apply (held_split p a) in Hh. destruct Hh as [Hh|Hh].
    + exact (N3 id Hh Hid).
    + apply (Hs id Hh). apply in_or_app. now right.
  - intros id Hex. rewrite (Ht id Hex), (held_split p a), in_app_iff. tauto.
  - assumption.
Qed.

Lemma BooksAt_track L a p tid :
  BooksAt L (eq tid) a p [] -> In tid (aids p a) ->
  Books L noex (set_contained p (set_add (p_contained p) tid)) [].
Proof.
  intros HB Hin. apply BooksAt_leave in HB. destruct HB as [B1 B2 B3 B4 B5]. constructor; auto.
  - intros id _. cbn [p_contained set_contained]. rewrite set_add_In.
    change (held (set_contained p _) id) with (held p id).
    destruct (N.eq_dec id tid) as [->|Hne].
    + split; [intros _; left; apply held_aids; eauto|intros _; now left].
    + rewrite (B4 id (fun H => Hne (eq_sym H))). tauto.
  - intros id Hid. destruct (B5 id Hid) as [H|H]; [left|right; exact H].
    cbn. apply set_add_In. now right.
Qed.

Lemma Books_frame (L L' ex : N -> Prop) p p' I :
  Books L ex p I ->
  p_pending p' = p_pending p -> p_parked p' = p_parked p -> p_contained p' = p_contained p ->
  (forall id, L' id -> keeps_status p' id) -> Books L' ex p' I.
Proof.
  intros [Hnd HI Hs Ht Hl] E1 E2 E3 Hl'.
  assert (Ha : forall a, aids p' a = aids p a) by (intros a; unfold aids; now rewrite E1, E2).
  assert (Hh : forall id, held p' id <-> held p id).
  { intros id. rewrite !held_aids. split; intros [a H]; exists a; [rewrite <- Ha|rewrite Ha]; auto. }
  constructor; auto.
  - intros a. rewrite Ha. apply Hnd.
  - intros id Hid. rewrite Hh. now apply Hs.
  - intros id Hex. rewrite E3, Hh. now apply Ht.
Qed.

(** what the account was last shown, and a lower bound on its nonces *)
Record view := mkView { v_nonce : N; v_bal : balances; v_low : N }.

Definition own (defs : list tx) (a lo : N) (l : list entry) : Prop :=
  forall e, In e l -> In (e_tx e) defs /\ e_acct e = a /\ lo <= e_nonce e.

Record AInv (defs : list tx) (a : N) (v : view) (l k : list entry) : Prop := mkAInv {
  a_own : own defs a (v_low v) (l ++ k);
  a_sorted : sorted l;
  a_gap : gapfree l (v_nonce v);
  a_aff : affordable l (v_bal v);
  a_len : llen k <= MAX_PARKED_PER_ACCOUNT }.

Definition PoolQ (u : list N) (defs : list tx) (pmax : N) (V : N -> view)
    (pd pk : N -> list entry) : Prop :=
  (forall b, AInv defs b (V b) (pd b) (pk b)) /\ parked_len u pk <= pmax.

Lemma own_app defs a lo l k : own defs a lo (l ++ k) <-> own defs a lo l /\ own defs a lo k.
Proof.
  unfold own. split.
  - intros H. split; intros e He; apply H, in_or_app; auto.
  - intros [H1 H2] e He. apply in_app_or in He. destruct He; auto.
Qed.

(** [d]: by how much [a]'s parked list may have grown *)
Lemma PoolQ_upd u defs pmax V V' a pd pk pd' pk' d :
  NoDup u -> PoolQ u defs pmax V pd pk ->
  (forall b, b <> a -> pd' b = pd b /\ pk' b = pk b /\ V' b = V b) ->
  AInv defs a (V' a) (pd' a) (pk' a) ->
  llen (pk' a) <= llen (pk a) + d -> parked_len u pk + d <= pmax ->
  PoolQ u defs pmax V' pd' pk'.
Proof.
  intros Hnd [HA HT] Hfr Ha Hle Htot. split.
  - intros b. destruct (N.eq_dec b a) as [->|Hne]; [assumption|].
    destruct (Hfr b Hne) as [-> [-> ->]]. apply HA.
  - pose proof (parked_len_change u pk pk' a d Hnd (fun b Hb => proj1 (proj2 (Hfr b Hb))) Hle).
    lia.
Qed.

(** an id determines its transaction, hence its account *)
Lemma PoolQ_apart u defs pmax V p :
  defs_ok u defs -> PoolQ u defs pmax V (p_pending p) (p_parked p) -> apart p.
Proof.
  intros [Hnd _] [HA _] a b id Ha Hb. unfold aids in *.
  apply in_map_iff in Ha. destruct Ha as [e [He Hin]].
  apply in_map_iff in Hb. destruct Hb as [e' [He' Hin']].
  destruct (a_own _ _ _ _ _ (HA a) e Hin) as [Hd [Hacc _]].
  destruct (a_own _ _ _ _ _ (HA b) e' Hin') as [Hd' [Hacc' _]].
  assert (e_tx e = e_tx e')
    by (apply (same_id_same_tx defs); auto; unfold e_id in *; congruence).
  unfold e_acct in *. congruence.
Qed.

(** an account outside the universe holds nothing, so what it was shown is immaterial *)
Lemma PoolQ_universe u defs pmax V V' pd pk :
  defs_ok u defs -> PoolQ u defs pmax V pd pk -> (forall a, In a u -> V' a = V a) ->
  PoolQ u defs pmax V' pd pk.
Proof.
  intros [_ Hu] [HA HT] HV. split; [|assumption]. intros a.
  destruct (in_dec N.eq_dec a u) as [Hin|Hnin]; [rewrite (HV a Hin); apply HA|].
  destruct (HA a) as [Hown _ _ _ Hlen].
  assert (Hnil : forall e, ~ In e (pd a ++ pk a)).
  { intros e He. destruct (Hown e He) as [Hd [Hacc _]]. apply Hnin. rewrite <- Hacc. now apply Hu. }
  destruct (pd a) as [|e l]; [|exfalso; apply (Hnil e); now left]. constructor.
  - intros e He. now apply Hnil in He.
  - constructor.
  - intros e [].
  - apply affordable_nil.
  - assumption.
Qed.

Lemma pool_ids_NoDup L ex p I u (h : N -> list entry) :
  NoDup u -> Books L ex p I -> apart p ->
  (forall a, exists l1 l2, p_pending p a ++ p_parked p a = l1 ++ h a ++ l2) ->
  NoDup (map e_id (flat_map h u)).
Proof.
  intros Hu HB Hap Hsub.
  assert (Hin : forall a e, In e (h a) -> In (e_id e) (aids p a)).
  { intros a e He. destruct (Hsub a) as [l1 [l2 E]]. unfold aids. rewrite E. apply in_map.
    apply in_or_app. right. apply in_or_app. now left. }
  induction u as [|a u IH]; cbn; [constructor|]. inversion Hu as [|? ? Ha Hu']; subst.
  rewrite map_app. apply NoDup_app_iff. split; [|split; [now apply IH|]].
  - pose proof (bf_nd _ _ _ _ HB a) as Hn. destruct (Hsub a) as [l1 [l2 E]].
    unfold aids in Hn. rewrite E, !map_app in Hn.
    apply NoDup_app_iff in Hn. destruct Hn as [_ [Hn _]]. now apply NoDup_app_iff in Hn.
  - intros id H1 H2. apply in_map_iff in H1. destruct H1 as [e [<- He]].
    apply in_map_iff in H2. destruct H2 as [e' [Hid He']]. apply in_flat_map in He'.
    destruct He' as [a' [Ha' He']]. apply Ha.
    rewrite (Hap a a' (e_id e)); [assumption|now apply Hin|]. rewrite <- Hid. now apply Hin.
Qed.
