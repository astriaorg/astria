(** C13 — the invariant [Inv] of system and ghost state along every run, and what it says about
    the account lists: ready_consecutive, ready_affordable, parked_limits,
    after_maintenance_no_stale. *)
From Astria Require Import Mempool.MempoolSpec Mempool.MempoolBase Mempool.MempoolOps
  Mempool.MempoolInv Mempool.MempoolLight.

Definition gview (g : ghost) (a : N) : view := mkView (g_shown_nonce g a) (g_shown_bal g a) 0.

(** [pm] is the total parked limit the run started with *)
Record Inv (pm : N) (s : sys) (g : ghost) : Prop := mkInv {
  i_pmax : s_pmax s = pm;
  i_univ : NoDup (s_universe s);
  i_defs : defs_ok (s_universe s) (s_defs s);
  i_pool : PoolInv (s_universe s) (s_defs s) (s_pmax s) (fun id => In id (g_live g)) (gview g)
                (s_pool s) [];
  i_shown : forall a, g_shown_nonce g a <= c_nonce (s_chain s) a <= U32_MAX }.

Lemma Inv_set_pool pm s g p' g' :
  Inv pm s g ->
  PoolInv (s_universe s) (s_defs s) (s_pmax s) (fun id => In id (g_live g')) (gview g') p' [] ->
  (forall a, g_shown_nonce g' a <= c_nonce (s_chain s) a) ->
  Inv pm (set_pool s p') g'.
Proof.
  intros [Hpm Hnd Hd _ Hsn] HP Hs. constructor; cbn; auto.
  intros a. split; [apply Hs|apply Hsn].
Qed.

Lemma Inv_set_chain pm s g ch' :
  Inv pm s g -> (forall a, c_nonce (s_chain s) a <= c_nonce ch' a <= U32_MAX) ->
  Inv pm (set_chain s ch') g.
Proof.
  intros [Hpm Hnd Hd HP Hsn] Hc. constructor; cbn; auto.
  intros a. specialize (Hsn a). specialize (Hc a). lia.
Qed.

Lemma nseq_NoDup k : NoDup (nseq k).
Proof.
  unfold nseq. apply FinFun.Injective_map_NoDup; [|apply seq_NoDup].
  intros x y H. now apply Nat2N.inj.
Qed.

Lemma Inv_init pmax k na : Inv pmax (init pmax k na) ghost0.
Proof.
  constructor; cbn; [reflexivity|apply nseq_NoDup|split; [constructor|intros t []]|
                     |intros a; unfold U32_MAX; lia].
  split.
  - split.
    + intros b. constructor; cbn; [intros e []|constructor|intros e []|apply affordable_nil|].
      unfold llen, MAX_PARKED_PER_ACCOUNT. cbn. lia.
    + unfold parked_len. induction (nseq k) as [|x l IH]; cbn; [lia|exact IH].
  - assert (Hh : forall id, ~ held empty_pool id).
    { intros id H. apply held_aids in H. destruct H as [a []]. }
    constructor; cbn.
    + intros a. constructor.
    + constructor.
    + intros id [].
    + intros id _. split; [intros []|intros [H|[]]; now apply Hh in H].
    + intros id [].
Qed.

Lemma find_def_Some s id t : find_def s id = Some t -> In t (s_defs s) /\ t_id t = id.
Proof.
  unfold find_def. intros H. apply find_some in H. destruct H as [H1 H2].
  split; [assumption|now apply N.eqb_eq].
Qed.

Lemma find_def_None s id : find_def s id = None -> ~ In id (map t_id (s_defs s)).
Proof.
  unfold find_def. intros H Hin. apply in_map_iff in Hin. destruct Hin as [t [Hid Ht]].
  pose proof (find_none _ _ H t Ht) as Hf. cbn in Hf. rewrite Hid, N.eqb_refl in Hf. discriminate.
Qed.

Lemma tx_status_None_not_contained u p id : tx_status u p id = None -> ~ In id (p_contained p).
Proof.
  unfold tx_status. destruct (mem id (p_contained p)) eqn:E; [discriminate|].
  intros _. now apply mem_false.
Qed.

Lemma PoolQ_mono u defs defs' pmax V V' pd pk :
  (forall t, In t defs -> In t defs') ->
  (forall b, v_nonce (V' b) = v_nonce (V b) /\ v_bal (V' b) = v_bal (V b) /\
             v_low (V' b) <= v_low (V b)) ->
  PoolQ u defs pmax V pd pk -> PoolQ u defs' pmax V' pd pk.
Proof.
  intros Hsub HV [HA HT]. split; [|assumption]. intros b. destruct (HA b) as [Ho Hs Hg Ha Hl].
  destruct (HV b) as [E1 [E2 E3]]. constructor; rewrite ?E1, ?E2; auto.
  intros e He. destruct (Ho e He) as [H1 [H2 H3]]. repeat split; auto. lia.
Qed.

Lemma do_insert_Inv pm s g t s1 x o :
  Inv pm s g -> find_def s (t_id t) = Some t -> ~ In (t_id t) (p_contained (s_pool s)) ->
  do_insert s t = (s1, x) -> o = OpIns (t_id t) \/ o = OpInsd (t_id t) ->
  Inv pm s1 (gupdate s g o x).
Proof.
  intros HS Hfd Hnc Hdo Ho. pose proof HS as [Hpm Hnd Hd HP Hsn]. unfold do_insert in Hdo.
  destruct (find_def_Some _ _ _ Hfd) as [Ht _].
  pose proof (insert_Inv _ _ _ _ Hnd (gview g) (s_pool s) t (c_nonce (s_chain s) (t_acct t))
                (c_bal (s_chain s) (t_acct t)) (tx_costs (c_fees (s_chain s)) t)
                Hd HP Ht Hnc (proj1 (Hsn (t_acct t))) (N.le_0_l _)) as H.
  destruct (insert _ _ _ _ _ _ _) as [p' r]. inversion Hdo; subst s1 x; clear Hdo.
  destruct H as [[HQ' HB'] Hplaced].
  assert (Hacc : match r with IErr _ => True | _ => In (t_id t) (p_contained p') end).
  { destruct r; cbn in Hplaced; auto; apply (bf_t _ _ _ _ HB' _ (fun f => f)); left; [left|right];
      eexists _, _; (split; [exact Hplaced|reflexivity]). }
  set (g' := mkGhost (match r with IPending | IParked => set_add (g_live g) (t_id t)
                                 | _ => g_live g end)
                     (upd (g_shown_nonce g) (t_acct t) (c_nonce (s_chain s) (t_acct t)))
                     (match r with
                      | IPending => upd (g_shown_bal g) (t_acct t) (c_bal (s_chain s) (t_acct t))
                      | _ => g_shown_bal g end)).
  assert (Hg : gupdate s g o (OIns r) = g').
  { unfold g'. destruct Ho as [-> | ->]; cbn; unfold acct_of; rewrite Hfd; reflexivity. }
  rewrite Hg. apply (Inv_set_pool pm s g); [exact HS|split|].
  - (* the ghost's new view is the one [insert] was shown *)
    apply (PoolQ_mono _ (s_defs s) _ _ _ (gview g') _ _ (fun _ H => H)) in HQ'; [exact HQ'|].
    intros b. unfold shown, gview, g'.
    destruct r; cbn; upd_cases b (t_acct t); cbn; repeat split; try reflexivity; lia.
  - apply (Books_frame _ _ _ p' p' [] HB'); auto.
    intros id Hid. unfold g' in Hid. cbn in Hid.
    assert (Hold : In id (g_live g) -> keeps_status p' id) by apply (bf_live _ _ _ _ HB').
    destruct r; auto; apply set_add_In in Hid; (destruct Hid as [->|Hid]; [now left|auto]).
  - intros a. unfold g'. cbn. specialize (Hsn a). upd_cases a (t_acct t); lia.
Qed.

Theorem gstep_Inv pm s g o :
  Inv pm s g -> let '(s1, x) := step s o in Inv pm s1 (gupdate s g o x).
Proof.
  intros HS. pose proof HS as [Hpm Hnd Hd [HQ HB] Hsn]. destruct o; cbn [step].
  - (* OpTx *)
    destruct (tx_ok s t) eqn:E; [|exact HS].
    unfold tx_ok in E. repeat (apply andb_prop in E; destruct E as [E ?]).
    destruct (find_def s (t_id t)) eqn:Ef; [discriminate|]. apply find_def_None in Ef.
    constructor; cbn; auto; [|split; [|exact HB]].
    + destruct Hd as [Hn Hall]. split.
      * rewrite map_app. cbn. apply NoDup_app_iff. split; [assumption|].
        split; [constructor; [intros []|constructor]|]. intros id Hin [<-|[]]. contradiction.
      * intros t' Hin. apply in_app_or in Hin. destruct Hin as [Hin|[<-|[]]]; [now apply Hall|].
        now apply mem_In.
    + apply (PoolQ_mono _ (s_defs s) _ _ (gview g)); [| |exact HQ].
      * intros t' Hin. apply in_or_app. now left.
      * intros b. repeat split. lia.
  - (* OpBump *)
    apply Inv_set_chain; [exact HS|]. intros b. cbn. specialize (Hsn b).
    upd_cases b a; unfold saturating_add; lia.
  - (* OpBal *)
    apply Inv_set_chain; [exact HS|]. intros b. cbn. specialize (Hsn b). lia.
  - (* OpFee *)
    apply Inv_set_chain; [exact HS|]. intros b. cbn. specialize (Hsn b). lia.
  - (* OpIns *)
    destruct (find_def s id) as [t|] eqn:Ef; [|exact HS].
    destruct (find_def_Some _ _ _ Ef) as [_ <-].
    destruct (tx_status (s_universe s) (s_pool s) (t_id t)) as [[| |r]|] eqn:Est; try exact HS.
    + (* reported once: the id is no longer live *)
      apply (Inv_set_pool pm s g); [exact HS| |intros a; apply Hsn].
      split; [exact HQ|]. apply (Books_frame _ _ _ _ _ [] HB); auto.
      intros id' Hin. apply set_remove_In in Hin. destruct Hin as [Hin Hne].
      pose proof (bf_live _ _ _ _ HB id' Hin) as Hk. unfold keeps_status in *. cbn.
      now rewrite assoc_get_remove_other.
    + apply tx_status_None_not_contained in Est.
      destruct (t_nonce t <? c_nonce (s_chain s) (t_acct t)); [exact HS|].
      destruct (do_insert s t) as [s1 x] eqn:Edo. eapply do_insert_Inv; eauto.
  - (* OpInsd *)
    destruct (find_def s id) as [t|] eqn:Ef; [|exact HS].
    destruct (find_def_Some _ _ _ Ef) as [_ <-].
    destruct (tx_status (s_universe s) (s_pool s) (t_id t)) eqn:Est; [exact HS|].
    apply tx_status_None_not_contained in Est.
    destruct (do_insert s t) as [s1 x] eqn:Edo. eapply do_insert_Inv; eauto.
  - (* OpRm *)
    destruct (find_def s id) as [t|] eqn:Ef; [|exact HS].
    apply (Inv_set_pool pm s g); [exact HS| |intros a; apply Hsn].
    apply remove_Inv; [assumption..|split; assumption].
  - (* OpMaint *)
    set (results := filter _ ids).
    pose proof (run_maintenance_Inv _ _ _ _ Hnd (s_chain s) (gview g) (s_pool s) recost results h
                  Hd (conj HQ HB) (fun a => proj1 (Hsn a))) as H.
    destruct (run_maintenance _ _ _ _ _ _ _) as [p' nd]. cbn [fst] in H. destruct H as [HQ' HB'].
    apply (Inv_set_pool pm s g); [exact HS| |intros a; cbn; lia].
    split; [|exact HB']. apply (PoolQ_mono _ (s_defs s) _ _ (cview (s_chain s))); [auto| |exact HQ'].
    intros b. cbn. repeat split; auto. lia.
  - (* OpAdvance *)
    apply (Inv_set_pool pm s g); [exact HS| |intros a; apply Hsn].
    split; [exact HQ|]. apply (Books_frame _ _ _ _ _ [] HB); auto. exact (bf_live _ _ _ _ HB).
Qed.

Lemma grun_Inv pm ops : forall s g, Inv pm s g -> let '(s', g') := grun s g ops in Inv pm s' g'.
Proof.
  induction ops as [|o ops IH]; intros s g H; cbn [grun]; [assumption|].
  pose proof (gstep_Inv pm s g o H) as H1. destruct (step s o) as [s1 x]. now apply IH.
Qed.

Lemma grun_fst ops : forall s g, fst (grun s g ops) = fst (run s ops).
Proof.
  induction ops as [|o ops IH]; intros s g; cbn [grun run]; [reflexivity|].
  destruct (step s o) as [s1 x]. rewrite IH. now destruct (run s1 ops).
Qed.

Lemma run_Inv pmax k na ops :
  exists g, Inv pmax (fst (run (init pmax k na) ops)) g.
Proof.
  pose proof (grun_Inv pmax ops _ _ (Inv_init pmax k na)) as H.
  rewrite <- (grun_fst ops (init pmax k na) ghost0).
  destruct (grun (init pmax k na) ghost0 ops) as [s g]. now exists g.
Qed.

Theorem ready_consecutive : stmt_ready_consecutive.
Proof.
  unfold stmt_ready_consecutive. intros pmax k na ops.
  pose proof (grun_Inv pmax ops _ _ (Inv_init pmax k na)) as H.
  destruct (grun (init pmax k na) ghost0 ops) as [s g].
  destruct H as [_ _ _ [[HA _] _] Hsn]. intros a. pose proof (a_gap _ _ _ _ _ (HA a)) as Hg.
  split; [exact Hg|]. split; [now apply gapfree_run_from|apply Hsn].
Qed.

Theorem ready_affordable : stmt_ready_affordable.
Proof.
  unfold stmt_ready_affordable. intros pmax k na ops.
  pose proof (grun_Inv pmax ops _ _ (Inv_init pmax k na)) as H.
  destruct (grun (init pmax k na) ghost0 ops) as [s g].
  destruct H as [_ _ _ [[HA _] _] _]. intros a. exact (a_aff _ _ _ _ _ (HA a)).
Qed.

Theorem parked_limits : stmt_parked_limits.
Proof.
  unfold stmt_parked_limits. intros pmax k na ops. cbn zeta.
  destruct (run_Inv pmax k na ops) as [g [Hpm _ _ [[HA HT] _] _]]. rewrite Hpm in HT.
  split; [exact HT|]. intros a. exact (a_len _ _ _ _ _ (HA a)).
Qed.

Lemma run_snoc ops o : forall s, fst (run s (ops ++ [o])) = fst (step (fst (run s ops)) o).
Proof.
  induction ops as [|o' ops IH]; intros s; cbn [app run fst].
  - destruct (step s o) as [s1 x]. reflexivity.
  - destruct (step s o') as [s1 x]. specialize (IH s1).
    destruct (run s1 (ops ++ [o])) as [s2 xs]. destruct (run s1 ops) as [s3 ys]. exact IH.
Qed.

Theorem after_maintenance_no_stale : stmt_after_maintenance_no_stale.
Proof.
  unfold stmt_after_maintenance_no_stale. intros pmax k na ops recost h ids. cbn zeta.
  rewrite run_snoc. destruct (run_Inv pmax k na ops) as [g [_ Hnd Hd HP Hsn]].
  set (s := fst (run (init pmax k na) ops)) in *. cbn [step].
  set (results := filter _ ids).
  pose proof (run_maintenance_Inv _ _ _ _ Hnd (s_chain s) (gview g) (s_pool s) recost results h
                Hd HP (fun a => proj1 (Hsn a))) as [[HA _] _].
  destruct (run_maintenance _ _ _ _ _ _ _) as [p' nd]. cbn [fst] in *.
  intros a e He. apply in_or_app in He. exact (proj2 (proj2 (a_own _ _ _ _ _ (HA a) e He))).
Qed.
