(** C11 — proofs.  File level: one [State::write] leaves the old or the new state readable at
    every crash point.  System level: an inductive invariant, [DInv] (the file against
    Celestia) and [VInv] (a running process against the file), a preservation lemma per
    event or group of events, and the statements of CrashSpec.v read off it. *)
From Astria Require Import Relayer.SubmissionModel Relayer.CrashModel Relayer.CrashSpec.

Lemma read_write d f : valid f = true -> read (write d f) = Some f.
Proof. intros H. unfold write, rename, write_temp, read; cbn. rewrite H. reflexivity. Qed.

Lemma write_crash_safe : stmt_write_crash_safe.
Proof.
  intros d old f k Hr Hv. destruct k; cbn [write_crash].
  - right. apply read_write, Hv.
  - left. exact Hr.
  - left. exact Hr.
  - right. apply read_write, Hv.
Qed.

Lemma read_valid d f : read d = Some f -> valid f = true.
Proof.
  unfold read. destruct (f_main d) as [[g|]|]; try discriminate.
  destruct (valid g) eqn:E; [|discriminate]. intros H; inversion H; subst. exact E.
Qed.

Lemma after_write_readable s f k m :
  read (disk s) <> None -> valid f = true -> read (disk (after_write s f k m)) <> None.
Proof.
  intros Hr Hv. cbn [after_write disk]. destruct (read (disk s)) as [old|] eqn:E; [|contradiction].
  destruct (write_crash_safe _ old f k E Hv) as [H|H]; rewrite H; discriminate.
Qed.

Lemma fstep_readable s o :
  read (disk s) <> None -> api_op o = true -> read (disk (fst (fstep s o))) <> None.
Proof.
  intros Hr Ha. destruct o; try discriminate Ha; cbn [fstep].
  - destruct (read (disk s)) as [f|] eqn:E; [|contradiction]. cbn [fst disk].
    rewrite read_write; [discriminate|]. eapply read_valid; exact E.
  - destruct (mem s) as [[| |]|]; exact Hr.
  - destruct (mem s) as [[|c l|]|]; try exact Hr.
    destruct (l <? h) eqn:E; [|exact Hr]. apply after_write_readable; assumption.
  - destruct (mem s) as [[| |h c0 l tx]|]; try exact Hr. apply after_write_readable; [exact Hr|reflexivity].
  - destruct (mem s) as [[| |h c0 l tx]|]; try exact Hr. apply after_write_readable; [exact Hr|reflexivity].
  - exact Hr.
Qed.

Lemma frun_readable ops : forall s,
  read (disk s) <> None -> forallb api_op ops = true -> read (disk (fst (frun s ops))) <> None.
Proof.
  induction ops as [|o ops IH]; intros s Hr Ha; cbn [frun]; [exact Hr|].
  cbn [forallb] in Ha. apply andb_prop in Ha as [Ho Hops].
  pose proof (fstep_readable s o Hr Ho) as H1. destruct (fstep s o) as [s1 x].
  specialize (IH s1 H1 Hops). destruct (frun s1 ops) as [s2 xs]. exact IH.
Qed.

Lemma file_always_readable_ops : stmt_file_always_readable_ops.
Proof. intros d m ops. exact (frun_readable ops {| disk := d; mem := m |}). Qed.

Lemma range_length a n : length (range a n) = n.
Proof. revert a; induction n as [|n IH]; intros a; cbn; [reflexivity|]. rewrite IH. reflexivity. Qed.

Lemma range_app a n m : range a (n + m) = range a n ++ range (a + N.of_nat n) m.
Proof.
  revert a; induction n as [|n IH]; intros a.
  - cbn [range plus app]. f_equal. cbn. lia.
  - cbn [range plus app]. rewrite IH. f_equal. f_equal. f_equal. lia.
Qed.

Lemma In_range k a n : In k (range a n) <-> a <= k < a + N.of_nat n.
Proof.
  revert a; induction n as [|n IH]; intros a; cbn [range In].
  - split; [intros []|lia].
  - rewrite IH. lia.
Qed.

Lemma range_snoc a n : range a n ++ [a + N.of_nat n] = range a (S n).
Proof.
  replace (S n) with (n + 1)%nat by lia. rewrite range_app. reflexivity.
Qed.

Lemma lenN_app {A} (l1 l2 : list A) : lenN (l1 ++ l2) = lenN l1 + lenN l2.
Proof. unfold lenN. rewrite app_length. lia. Qed.

Lemma lenN_cons {A} (x : A) l : lenN (x :: l) = 1 + lenN l.
Proof. unfold lenN. cbn [length]. lia. Qed.

Lemma lenN_snoc {A} (l : list A) x : lenN (l ++ [x]) = lenN l + 1.
Proof. rewrite lenN_app. reflexivity. Qed.

Lemma lenN_nil_inv {A} (l : list A) : lenN l = 0 -> l = [].
Proof. destruct l; [reflexivity|]. unfold lenN; cbn. lia. Qed.

Definition consec (a : N) (l : list N) : Prop := l = range a (length l).

Lemma consec_snoc a l x : consec a l -> x = a + lenN l -> consec a (l ++ [x]).
Proof.
  unfold consec. intros Hl ->. rewrite app_length. cbn [length]. rewrite Nat.add_1_r, <- range_snoc, <- Hl.
  reflexivity.
Qed.

Lemma consec_cons a x l : consec a (x :: l) -> x = a /\ consec (a + 1) l.
Proof. unfold consec. cbn [length range]. intros H. injection H as Hx Hl. split; assumption. Qed.

Lemma consec_last a l d : l <> [] -> consec a l -> last l d = a + lenN l - 1.
Proof.
  unfold consec. intros Hne Hl. unfold lenN. destruct (length l) as [|n]; [subst l; contradiction|].
  rewrite Hl, <- range_snoc, last_last. lia.
Qed.

Lemma app_inv_length {A} (l1 l2 r1 r2 : list A) :
  l1 ++ l2 = r1 ++ r2 -> length l1 = length r1 -> l1 = r1 /\ l2 = r2.
Proof.
  revert r1; induction l1 as [|x l1 IH]; intros [|y r1] H Hl; cbn in *; try discriminate.
  - split; [reflexivity|exact H].
  - inversion H; subst. destruct (IH r1 H2) as [-> ->]; [lia|]. split; reflexivity.
Qed.

Lemma consec_app a l1 l2 : consec a (l1 ++ l2) -> consec a l1 /\ consec (a + lenN l1) l2.
Proof.
  unfold consec. rewrite app_length, range_app. intros H. apply app_inv_length in H; [exact H|].
  rewrite range_length. reflexivity.
Qed.

(** [tk]: what the submitter holds beyond the last completed height [vl]; [ch]: the channel;
    [nx]: the reader's next height.  [st_link]: the channel may start below [vl + 1] only
    while nothing is held: the reader restarts after the file's last height, and a
    confirmation found at startup then moves [vl] past heights already fetched again. *)
Record Stream (vl : N) (tk ch : list N) (nx : N) : Prop := {
  st_taken : consec (vl + 1) tk;
  st_chan : consec (nx - lenN ch) ch;
  st_len : lenN ch <= nx;
  st_link : (tk = [] /\ nx - lenN ch <= vl + 1) \/ nx - lenN ch = vl + 1 + lenN tk
}.

Lemma stream_start l : Stream l [] [] (l + 1).
Proof.
  constructor; try reflexivity; [|left; split; [reflexivity|]]; unfold lenN; cbn [length N.of_nat]; lia.
Qed.

Lemma stream_fetch vl tk ch nx : Stream vl tk ch nx -> Stream vl tk (ch ++ [nx]) (nx + 1).
Proof.
  intros [Ht Hc Hl Hk].
  assert (Hs : nx + 1 - lenN (ch ++ [nx]) = nx - lenN ch) by (rewrite lenN_snoc; lia).
  constructor; rewrite ?Hs.
  - exact Ht.
  - apply consec_snoc; [exact Hc|lia].
  - rewrite lenN_snoc. lia.
  - exact Hk.
Qed.

Lemma stream_recv vl tk x rest nx :
  Stream vl tk (x :: rest) nx -> Stream vl (if x <=? vl then tk else tk ++ [x]) rest nx.
Proof.
  intros [Ht Hc Hl Hk]. rewrite lenN_cons in *. apply consec_cons in Hc as [Hx Hrest].
  replace (nx - (1 + lenN rest) + 1) with (nx - lenN rest) in Hrest by lia.
  destruct (N.leb_spec x vl) as [Hle|Hgt]; constructor; try assumption; try lia.
  - left. destruct Hk as [[Hnil _]|Heq]; [split; [exact Hnil|]|]; lia.
  - apply consec_snoc; [exact Ht|]. destruct Hk as [[-> Hle]|Heq]; [cbn|]; lia.
  - right. rewrite lenN_snoc. destruct Hk as [[-> Hle]|Heq]; [cbn|]; lia.
Qed.

Lemma stream_done vl hs tk ch nx :
  hs <> [] -> Stream vl (hs ++ tk) ch nx -> Stream (last hs 0) tk ch nx.
Proof.
  intros Hne [Ht Hc Hl Hk]. destruct (consec_app _ _ _ Ht) as [H1 H2].
  rewrite (consec_last _ _ 0 Hne H1).
  assert (Hpos : lenN hs <> 0) by (intros E; apply Hne, lenN_nil_inv, E).
  replace (vl + 1 + lenN hs - 1) with (vl + lenN hs) by lia.
  constructor; try assumption.
  - replace (vl + lenN hs + 1) with (vl + 1 + lenN hs) by lia. exact H2.
  - right. destruct Hk as [[Hnil _]|Heq].
    + apply app_eq_nil in Hnil as [Hnil _]. contradiction.
    + rewrite lenN_app in Heq. lia.
Qed.

Lemma stream_advance vl vl' ch nx : Stream vl [] ch nx -> vl <= vl' -> Stream vl' [] ch nx.
Proof.
  intros [_ Hc Hl Hk] Hle. constructor; try assumption; [reflexivity|].
  left. split; [reflexivity|]. destruct Hk as [[_ H]|H]; [|cbn in H]; lia.
Qed.

Lemma In_conf cl k :
  In k (conf cl) <-> exists r c, In r cl /\ tx_st r = Confirmed c /\ In k (tx_hs r).
Proof.
  induction cl as [|x cl IH]; cbn [conf In].
  - split; [intros []|intros (r & c & [] & _)].
  - destruct (tx_st x) as [|c0] eqn:E; rewrite ?in_app_iff, IH; split.
    + intros (r & c & A & B). exists r, c. auto.
    + intros (r & c & [<-|A] & B & C); [congruence|]. exists r, c. auto.
    + intros [H|(r & c & A & B)]; [exists x, c0|exists r, c]; auto.
    + intros (r & c & [<-|A] & B & C); [left; exact C|]. right. exists r, c. auto.
Qed.

Lemma find_confirmed_some tx cl c :
  find_confirmed tx cl = Some c -> exists r, In r cl /\ tx_id r = tx /\ tx_st r = Confirmed c.
Proof.
  induction cl as [|x cl IH]; cbn [find_confirmed]; [discriminate|].
  destruct (N.eqb_spec (tx_id x) tx) as [E|E]; [destruct (tx_st x) as [|c'] eqn:Est|].
  2:{ intros [= <-]. exists x. split; [left; reflexivity|split; assumption]. }
  all: intros H; destruct (IH H) as (r & A & B); exists r; split; [right; exact A|exact B].
Qed.

Lemma confirm_tx_in tx c cl r' :
  In r' (confirm_tx tx c cl) -> exists r, In r cl /\ tx_id r' = tx_id r /\ tx_hs r' = tx_hs r.
Proof.
  unfold confirm_tx. rewrite in_map_iff. intros (r & <- & Hin). exists r. split; [exact Hin|].
  destruct (tx_id r =? tx); [|split; reflexivity]. destruct (tx_st r); split; reflexivity.
Qed.

Lemma conf_confirm_incl tx c cl k : In k (conf cl) -> In k (conf (confirm_tx tx c cl)).
Proof.
  rewrite !In_conf. intros (r & c' & Hr & Hst & Hk). exists r, c'. split; [|auto].
  unfold confirm_tx. apply in_map_iff. exists r. split; [|exact Hr].
  rewrite Hst. destruct (tx_id r =? tx); reflexivity.
Qed.

Lemma Covered_mono base cl cl' l :
  (forall k, In k (conf cl) -> In k (conf cl')) -> Covered base cl l -> Covered base cl' l.
Proof. intros H C k Hk. apply H, C, Hk. Qed.

Lemma Covered_le base cl l l' : l' <= l -> Covered base cl l -> Covered base cl l'.
Proof. intros H C k Hk. apply C. lia. Qed.

Lemma Covered_tx base cl r c a n h :
  In r cl -> tx_st r = Confirmed c -> tx_hs r = range a n ->
  Covered base cl (a - 1) -> h < a + N.of_nat n -> Covered base cl h.
Proof.
  intros Hr Hst Hhs Hc Hh k Hk. destruct (N.lt_ge_cases k a) as [Hlt|Hge].
  - apply Hc. lia.
  - apply In_conf. exists r, c. rewrite Hhs, In_range. split; [exact Hr|split; [exact Hst|lia]].
Qed.

(** [d_tx]: the transaction a `prepared` file names carries exactly the heights l+1 .. h.
    [d_anch] makes the absence of gaps inductive: every transaction's heights are consecutive
    and start right after a covered height, so its confirmation, whenever it comes, extends
    what is covered. *)
Record DInv (base : N) (d : fstate) (cl : list txrec) (fr : N) : Prop := {
  d_cov : Covered base cl (file_last d);
  d_valid : valid d = true;
  d_tx : forall h c l tx, d = Prepared h c l tx ->
           tx < fr /\
           forall r, In r cl -> tx_id r = tx -> tx_hs r = range (l + 1) (N.to_nat (h - l));
  d_fresh : forall r, In r cl -> tx_id r < fr;
  d_anch : forall r, In r cl -> exists a n, tx_hs r = range a n /\ Covered base cl (a - 1)
}.

Lemma DInv_same base s d cl fr :
  DInv base (sdisk s) (cel s) (fresh s) -> d = sdisk s -> cl = cel s -> fr = fresh s ->
  DInv base d cl fr.
Proof. intros H -> -> ->. exact H. Qed.

Lemma DInv_marks base d cl fr h c l tx :
  DInv base d cl fr -> d = Prepared h c l tx -> l < h /\ Covered base cl l.
Proof.
  intros D ->. split; [apply N.ltb_lt, (d_valid _ _ _ _ D)|apply (d_cov _ _ _ _ D)].
Qed.

Lemma DInv_started base d cl fr c l :
  DInv base d cl fr -> Covered base cl l -> DInv base (Started c l) cl fr.
Proof.
  intros D Hc. constructor.
  - exact Hc.
  - reflexivity.
  - discriminate.
  - apply (d_fresh _ _ _ _ D).
  - apply (d_anch _ _ _ _ D).
Qed.

Lemma DInv_prepared base d cl fr h c :
  DInv base d cl fr -> file_last d <? h = true ->
  DInv base (Prepared h c (file_last d) fr) cl (fr + 1).
Proof.
  intros D Hlt. constructor.
  - apply (d_cov _ _ _ _ D).
  - exact Hlt.
  - intros h' c' l' tx E. injection E as <- <- <- <-. split; [lia|].
    intros r Hr Hid. pose proof (d_fresh _ _ _ _ D r Hr). lia.
  - intros r Hr. pose proof (d_fresh _ _ _ _ D r Hr). lia.
  - apply (d_anch _ _ _ _ D).
Qed.

Lemma DInv_cel_mono base d cl cl' fr :
  DInv base d cl fr ->
  (forall k, In k (conf cl) -> In k (conf cl')) ->
  (forall r', In r' cl' ->
     (exists r, In r cl /\ tx_id r' = tx_id r /\ tx_hs r' = tx_hs r) \/
     (exists h c l, d = Prepared h c l (tx_id r') /\ tx_hs r' = range (l + 1) (N.to_nat (h - l)))) ->
  DInv base d cl' fr.
Proof.
  intros D Hconf Hrec. constructor.
  - eapply Covered_mono; [exact Hconf|apply (d_cov _ _ _ _ D)].
  - apply (d_valid _ _ _ _ D).
  - intros h c l tx E. destruct (d_tx _ _ _ _ D h c l tx E) as [Hlt Hold]. split; [exact Hlt|].
    intros r' Hr' Hid. destruct (Hrec r' Hr') as [(r & Hr & Hid' & ->)|(h' & c' & l' & E' & ->)].
    + apply Hold; [exact Hr|congruence].
    + rewrite E in E'. injection E' as <- _ <- _. reflexivity.
  - intros r' Hr'. destruct (Hrec r' Hr') as [(r & Hr & -> & _)|(h & c & l & E & _)].
    + apply (d_fresh _ _ _ _ D), Hr.
    + apply (d_tx _ _ _ _ D _ _ _ _ E).
  - intros r' Hr'. destruct (Hrec r' Hr') as [(r & Hr & _ & ->)|(h & c & l & E & ->)].
    + destruct (d_anch _ _ _ _ D r Hr) as (a & n & A & B). exists a, n. split; [exact A|].
      eapply Covered_mono; [exact Hconf|exact B].
    + exists (l + 1), (N.to_nat (h - l)). split; [reflexivity|].
      rewrite N.add_sub. eapply Covered_mono; [exact Hconf|]. apply (DInv_marks _ _ _ _ _ _ _ _ D E).
Qed.

Lemma DInv_cov_tx base d cl fr h c l tx c' :
  DInv base d cl fr -> d = Prepared h c l tx -> find_confirmed tx cl = Some c' ->
  Covered base cl h.
Proof.
  intros D E F. destruct (find_confirmed_some _ _ _ F) as (r & Hin & Hid & Hst).
  destruct (d_tx _ _ _ _ D h c l tx E) as [_ Hhs]. destruct (DInv_marks _ _ _ _ _ _ _ _ D E) as [Hlt Hc].
  eapply Covered_tx; [exact Hin|exact Hst|exact (Hhs r Hin Hid)| |lia].
  rewrite N.add_sub. exact Hc.
Qed.

Lemma DInv_no_gap base d cl fr h : DInv base d cl fr -> In h (conf cl) -> Covered base cl h.
Proof.
  intros D Hh. apply In_conf in Hh as (r & c & Hr & Hst & Hin).
  destruct (d_anch _ _ _ _ D r Hr) as (a & n & Hhs & Hcov).
  rewrite Hhs in Hin. apply In_range in Hin.
  eapply Covered_tx; [exact Hr|exact Hst|exact Hhs|exact Hcov|lia].
Qed.

Definition phase_ok (d : fstate) (vl lg : N) (p : phase) : Prop :=
  match p with
  | PIdle ENone | PIdle EOther => True
  | PIdle (ETimedOut tx) | PPrepared tx | PSent tx | PPolling tx => exists c, d = Prepared lg c vl tx
  end.

Record VInv (d : fstate) (v : vol) : Prop := {
  vi_file : match v_mode v with
            | MRun => file_last d = v_last v
            | MStartup h c l tx => d = Prepared h c l tx /\ v_last v = l /\ taken v = []
            end;
  vi_stream : Stream (v_last v) (taken v) (chan v) (reader_next v);
  vi_att : forall a, inflight v = Some a ->
             at_hs a <> [] /\ v_mode v = MRun /\ phase_ok d (v_last v) (largest a) (at_phase a)
}.

Definition Inv (base : N) (s : sys) : Prop :=
  DInv base (sdisk s) (cel s) (fresh s) /\ forall v, proc s = Some v -> VInv (sdisk s) v.

Lemma Inv_init f0 : initial_file f0 -> Inv (file_last f0) (init f0).
Proof.
  intros Hf. split; [|intros v H; discriminate]. cbn [init sdisk cel fresh]. constructor.
  - intros k Hk. lia.
  - destruct Hf as [->|(c & l & ->)]; reflexivity.
  - intros h c l tx E. destruct Hf as [->|(c' & l' & ->)]; discriminate.
  - intros r [].
  - intros r [].
Qed.

Lemma inv_intro base d v cl fr :
  DInv base d cl fr -> VInv d v -> Inv base {| sdisk := d; proc := Some v; cel := cl; fresh := fr |}.
Proof. intros D V. split; [exact D|]. intros v' E. injection E as <-. exact V. Qed.

Lemma inv_with_proc base s v : Inv base s -> VInv (sdisk s) v -> Inv base (with_proc s v).
Proof. intros [D _] V. apply inv_intro; assumption. Qed.

Lemma run_file d v : VInv d v -> v_mode v = MRun -> file_last d = v_last v.
Proof. intros V Hm. pose proof (vi_file _ _ V) as Hf. rewrite Hm in Hf. exact Hf. Qed.

Lemma att_file d v a : VInv d v -> inflight v = Some a -> file_last d = v_last v.
Proof. intros V Ha. apply (run_file _ _ V), (vi_att _ _ V a Ha). Qed.

Lemma att_heights d v a :
  VInv d v -> inflight v = Some a ->
  consec (v_last v + 1) (at_hs a) /\
  largest a = v_last v + lenN (at_hs a) /\ 0 < lenN (at_hs a).
Proof.
  intros V Ha. destruct (vi_att _ _ V a Ha) as (Hne & _).
  pose proof (st_taken _ _ _ _ (vi_stream _ _ V)) as Ht. unfold taken in Ht. rewrite Ha in Ht.
  apply consec_app in Ht as [Hhs _].
  assert (Hpos : lenN (at_hs a) <> 0) by (intros E; apply Hne, lenN_nil_inv, E).
  split; [exact Hhs|]. split; [|lia].
  unfold largest. rewrite (consec_last _ _ 0 Hne Hhs). lia.
Qed.

Lemma VInv_set_phase d d' v a p :
  VInv d v -> inflight v = Some a -> file_last d' = file_last d ->
  phase_ok d' (v_last v) (largest a) p ->
  VInv d' (set_phase v a p).
Proof.
  intros V Ha Hf Hp. destruct (vi_att _ _ V a Ha) as (Hne & Hm & _).
  constructor; cbn [set_phase v_mode v_last inflight chan reader_next].
  - rewrite Hm, Hf. apply (att_file _ _ _ V Ha).
  - pose proof (vi_stream _ _ V) as H. unfold taken in *. rewrite Ha in H. exact H.
  - intros a' E. injection E as <-. split; [exact Hne|split; [exact Hm|exact Hp]].
Qed.

Lemma inv_set_phase base s v a p :
  Inv base s -> proc s = Some v -> inflight v = Some a ->
  phase_ok (sdisk s) (v_last v) (largest a) p ->
  Inv base (with_proc s (set_phase v a p)).
Proof.
  intros HI Hp Ha Hph. apply inv_with_proc; [exact HI|]. destruct HI as [_ VI].
  apply VInv_set_phase with (sdisk s); [apply VI, Hp|exact Ha|reflexivity|exact Hph].
Qed.

Lemma inv_fetch d v :
  VInv d v ->
  VInv d {| v_mode := v_mode v; v_lastc := v_lastc v; v_last := v_last v;
            reader_next := reader_next v + 1; chan := chan v ++ [reader_next v];
            batch := batch v; pending := pending v; inflight := inflight v |}.
Proof.
  intros V. constructor.
  - apply (vi_file _ _ V).
  - apply stream_fetch, (vi_stream _ _ V).
  - apply (vi_att _ _ V).
Qed.

Lemma inv_recv d v x rest b p :
  VInv d v -> v_mode v = MRun -> pending v = None -> chan v = x :: rest ->
  b ++ opt_list p = batch v ++ (if x <=? v_last v then [] else [x]) ->
  VInv d {| v_mode := MRun; v_lastc := v_lastc v; v_last := v_last v;
            reader_next := reader_next v; chan := rest;
            batch := b; pending := p; inflight := inflight v |}.
Proof.
  intros V Hm Hpd Hch Hb. constructor.
  - apply (run_file _ _ V Hm).
  - pose proof (vi_stream _ _ V) as S. rewrite Hch in S. apply stream_recv in S.
    unfold taken in *. cbn [v_last inflight batch pending chan reader_next].
    rewrite Hpd, app_nil_r in S. rewrite Hb.
    destruct (x <=? v_last v); [rewrite app_nil_r|rewrite app_assoc]; exact S.
  - intros a Ha. destruct (vi_att _ _ V a Ha) as (A & _ & C). split; [exact A|split; [reflexivity|exact C]].
Qed.

Lemma inv_take d v :
  VInv d v -> v_mode v = MRun -> inflight v = None -> batch v <> [] ->
  VInv d {| v_mode := MRun; v_lastc := v_lastc v; v_last := v_last v;
            reader_next := reader_next v; chan := chan v;
            batch := opt_list (pending v); pending := None;
            inflight := Some {| at_hs := batch v; at_phase := PIdle ENone |} |}.
Proof.
  intros V Hm Hi Hb. constructor.
  - apply (run_file _ _ V Hm).
  - pose proof (vi_stream _ _ V) as S. unfold taken in *.
    cbn [v_last inflight batch pending chan reader_next at_hs opt_list]. rewrite Hi in S.
    rewrite app_nil_r. exact S.
  - intros a E. injection E as <-. split; [exact Hb|split; [reflexivity|exact I]].
Qed.

Lemma inv_prepare_ok base s v a :
  Inv base s -> proc s = Some v -> inflight v = Some a -> v_last v <? largest a = true ->
  Inv base {| sdisk := Prepared (largest a) (v_lastc v) (v_last v) (fresh s);
              proc := Some (set_phase v a (PPrepared (fresh s)));
              cel := cel s; fresh := fresh s + 1 |}.
Proof.
  intros [D VI] Hp Ha Hlt. specialize (VI v Hp). pose proof (att_file _ _ _ VI Ha) as Hf.
  apply inv_intro.
  - rewrite <- Hf in *. apply DInv_prepared; assumption.
  - apply VInv_set_phase with (sdisk s); [exact VI|exact Ha|symmetry; exact Hf|].
    exists (v_lastc v). reflexivity.
Qed.

Lemma inv_deliver base s v a tx :
  Inv base s -> proc s = Some v -> inflight v = Some a -> at_phase a = PPrepared tx ->
  Inv base {| sdisk := sdisk s; proc := Some (set_phase v a (PSent tx));
              cel := {| tx_id := tx; tx_hs := at_hs a; tx_st := Pending |} :: cel s;
              fresh := fresh s |}.
Proof.
  intros [D VI] Hp Ha Eph. specialize (VI v Hp).
  destruct (vi_att _ _ VI a Ha) as (_ & _ & Hph). rewrite Eph in Hph. destruct Hph as [c0 Hd].
  destruct (att_heights _ _ _ VI Ha) as (Hhs & Hlg & _).
  apply inv_intro.
  - eapply DInv_cel_mono; [exact D|intros k Hk; exact Hk|].
    intros r' [<-|Hr']; [right|left; exists r'; auto].
    exists (largest a), c0, (v_last v). split; [exact Hd|]. cbn [tx_hs].
    rewrite Hlg. rewrite Hhs at 1. f_equal. unfold lenN. lia.
  - apply VInv_set_phase with (sdisk s); [exact VI|exact Ha|reflexivity|]. exists c0. exact Hd.
Qed.

Lemma inv_finish base s v a c tx :
  Inv base s -> proc s = Some v -> inflight v = Some a ->
  (exists c0, sdisk s = Prepared (largest a) c0 (v_last v) tx) ->
  find_confirmed tx (cel s) = Some c ->
  Inv base (finish s v a c).
Proof.
  intros [D VI] Hp Ha (c0 & Hd) Hf. specialize (VI v Hp).
  destruct (vi_att _ _ VI a Ha) as (Hne & _).
  apply inv_intro.
  - apply DInv_started with (sdisk s); [exact D|]. eapply DInv_cov_tx; eassumption.
  - constructor.
    + reflexivity.
    + pose proof (vi_stream _ _ VI) as S. unfold taken in *. rewrite Ha in S.
      apply (stream_done _ _ _ _ _ Hne S).
    + discriminate.
Qed.

Lemma inv_startup_done base s v h c l tx c1 l1 :
  Inv base s -> proc s = Some v -> v_mode v = MStartup h c l tx ->
  l1 = l \/ (l1 = h /\ find_confirmed tx (cel s) = Some c1) ->
  Inv base {| sdisk := Started c1 l1;
              proc := Some {| v_mode := MRun; v_lastc := c1; v_last := l1;
                              reader_next := reader_next v; chan := chan v; batch := batch v;
                              pending := pending v; inflight := inflight v |};
              cel := cel s; fresh := fresh s |}.
Proof.
  intros [D VI] Hp Em Hl1. specialize (VI v Hp).
  pose proof (vi_file _ _ VI) as Hf. rewrite Em in Hf. destruct Hf as (Hd & Hl & Htk).
  destruct (DInv_marks _ _ _ _ _ _ _ _ D Hd) as [Hlt Hc].
  assert (Hle : l <= l1 /\ Covered base (cel s) l1).
  { destruct Hl1 as [->|[-> Hf]]; (split; [lia|]); [exact Hc|]. eapply DInv_cov_tx; eassumption. }
  apply inv_intro.
  - apply DInv_started with (sdisk s); [exact D|apply Hle].
  - constructor.
    + reflexivity.
    + pose proof (vi_stream _ _ VI) as S. rewrite Hl in S. unfold taken in *.
      cbn [v_last inflight batch pending chan reader_next]. rewrite Htk in *.
      apply stream_advance with l; [exact S|apply Hle].
    + intros a Ha. destruct (vi_att _ _ VI a Ha) as (_ & Hm & _). congruence.
Qed.

Lemma inv_cel_confirm base s tx c :
  Inv base s ->
  Inv base {| sdisk := sdisk s; proc := proc s; cel := confirm_tx tx c (cel s); fresh := fresh s |}.
Proof.
  intros [D VI]. split; [|exact VI]. cbn [sdisk cel fresh].
  eapply DInv_cel_mono; [exact D|apply conf_confirm_incl|].
  intros r' Hr'. left. eapply confirm_tx_in, Hr'.
Qed.

Lemma inv_restart base s m c l :
  Inv base s ->
  match m with
  | MRun => file_last (sdisk s) = l
  | MStartup h c0 l0 tx => sdisk s = Prepared h c0 l0 tx /\ l = l0
  end ->
  Inv base (with_proc s {| v_mode := m; v_lastc := c; v_last := l; reader_next := l + 1;
                           chan := []; batch := []; pending := None; inflight := None |}).
Proof.
  intros HI Hm. apply inv_with_proc; [exact HI|]. constructor.
  - destruct m as [h c0 l0 tx|]; [|exact Hm]. destruct Hm as [Hd ->]. repeat split; assumption.
  - apply stream_start.
  - discriminate.
Qed.

(** [H]: an event of [try_submit] is enabled.  Leaves one goal per phase the event allows,
    with the attempt [a] in flight ([Ei]) and what the invariant says of its phase ([Hph]). *)
Ltac on_attempt H VI v a Ei Hph tx Eph :=
  destruct (inflight v) as [a|] eqn:Ei; [|discriminate H];
  destruct (vi_att _ _ VI a Ei) as (_ & _ & Hph);
  destruct (at_phase a) as [[| |tx]|tx|tx|tx] eqn:Eph; try discriminate H; cbn [phase_ok] in Hph.

Lemma step_inv base s e s' : Inv base s -> step s e = Some s' -> Inv base s'.
Proof.
  intros HI H. pose proof HI as [D VI]. unfold step in H.
  destruct (proc s) as [v|] eqn:Ep.
  - (* process up *)
    specialize (VI v eq_refl). destruct e; try discriminate.
    + (* EFetch *)
      injection H as <-. apply (inv_with_proc _ _ _ HI), inv_fetch, VI.
    + (* ERecv *)
      unfold is_run in H. destruct (v_mode v) eqn:Em; [discriminate|].
      destruct (pending v) eqn:Epd; [discriminate|].
      destruct (chan v) as [|x rest] eqn:Ech; [discriminate|].
      destruct (x <=? v_last v) eqn:Ex;
        [|destruct full; [destruct (batch v) eqn:Eb; [discriminate|]; rewrite <- Eb in H|]];
        injection H as <-; apply (inv_with_proc _ _ _ HI); apply inv_recv with x; try assumption;
        rewrite Ex.
      * reflexivity.       (* skipped *)
      * reflexivity.       (* Full: it becomes the pending block *)
      * apply app_nil_r.   (* added to the batch *)
    + (* ETake *)
      unfold is_run in H. destruct (v_mode v) eqn:Em; [discriminate|].
      destruct (inflight v) eqn:Ei; [discriminate|]. destruct (batch v) eqn:Eb; [discriminate|].
      injection H as <-. rewrite <- Eb. apply (inv_with_proc _ _ _ HI), inv_take; try assumption.
      rewrite Eb. discriminate.
    + (* EPrepareFail, in PIdle ENone | PIdle EOther *)
      on_attempt H VI v a Ei Hph tx Eph;
        injection H as <-; apply (inv_set_phase _ _ _ _ _ HI Ep Ei); exact I.
    + (* EPrepareOk, in PIdle ENone | PIdle EOther *)
      on_attempt H VI v a Ei Hph tx Eph;
        (destruct (v_last v <? largest a) eqn:Elt; [|discriminate H]);
        injection H as <-; apply inv_prepare_ok; assumption.
    + (* EDeliver, in PPrepared *)
      on_attempt H VI v a Ei Hph tx Eph. injection H as <-. apply inv_deliver; assumption.
    + (* ERespOk, in PSent *)
      on_attempt H VI v a Ei Hph tx Eph.
      injection H as <-. apply (inv_set_phase _ _ _ _ _ HI Ep Ei). exact Hph.
    + (* ERespErr, in PPrepared | PSent *)
      on_attempt H VI v a Ei Hph tx Eph;
        injection H as <-; apply (inv_set_phase _ _ _ _ _ HI Ep Ei); exact I.
    + (* ERespTimeout, in PPrepared | PSent *)
      on_attempt H VI v a Ei Hph tx Eph;
        injection H as <-; apply (inv_set_phase _ _ _ _ _ HI Ep Ei); exact Hph.
    + (* EPollOk, in PPolling *)
      on_attempt H VI v a Ei Hph tx Eph.
      destruct (find_confirmed tx (cel s)) as [c|] eqn:Ef; [|discriminate H].
      injection H as <-. exact (inv_finish _ _ _ _ _ _ HI Ep Ei Hph Ef).
    + (* EReconfirmOk, in PIdle (ETimedOut _) *)
      on_attempt H VI v a Ei Hph tx Eph.
      destruct (find_confirmed tx (cel s)) as [c|] eqn:Ef; [|discriminate H].
      injection H as <-. exact (inv_finish _ _ _ _ _ _ HI Ep Ei Hph Ef).
    + (* EReconfirmTimeout, in PIdle (ETimedOut _) *)
      on_attempt H VI v a Ei Hph tx Eph.
      injection H as <-. apply (inv_set_phase _ _ _ _ _ HI Ep Ei). exact I.
    + (* EStartupOk *)
      destruct (v_mode v) as [h c l tx|] eqn:Em; [|discriminate].
      destruct (find_confirmed tx (cel s)) as [c'|] eqn:Ef; [|discriminate]. injection H as <-.
      eapply inv_startup_done; eauto.
    + (* EStartupTimeout *)
      destruct (v_mode v) as [h c l tx|] eqn:Em; [|discriminate]. injection H as <-.
      eapply inv_startup_done; eauto.
    + (* ECelConfirm *)
      rewrite <- Ep in H. injection H as <-. apply inv_cel_confirm, HI.
    + (* ECrash *)
      injection H as <-. split; [exact D|]. discriminate.
  - (* process down *)
    destruct e; try discriminate.
    + (* ECelConfirm *)
      rewrite <- Ep in H. injection H as <-. apply inv_cel_confirm, HI.
    + (* ERestart *)
      destruct (sdisk s) as [|c l|h c l tx] eqn:Ed; [| |destruct (l <? h); [|discriminate]];
        injection H as <-; apply inv_restart; try exact HI; rewrite Ed; repeat split.
Qed.

Lemma run_inv base es : forall s s', Inv base s -> run s es = Some s' -> Inv base s'.
Proof.
  induction es as [|e es IH]; intros s s' HI H; cbn [run] in H.
  - inversion H; subst. exact HI.
  - destruct (step s e) as [s1|] eqn:Es; [|discriminate].
    eapply IH; [|exact H]. eapply step_inv; eassumption.
Qed.

Lemma reach_inv f0 es s :
  initial_file f0 -> run (init f0) es = Some s -> Inv (file_last f0) s.
Proof. intros Hf H. eapply run_inv; [apply Inv_init, Hf|exact H]. Qed.

Lemma no_gap : stmt_no_gap.
Proof.
  intros f0 es s Hf H h Hh. destruct (reach_inv _ _ _ Hf H) as [D _].
  exact (DInv_no_gap _ _ _ _ _ D Hh).
Qed.

Lemma file_truthful : stmt_file_truthful.
Proof. intros f0 es s Hf H. destruct (reach_inv _ _ _ Hf H) as [D _]. apply (d_cov _ _ _ _ D). Qed.

Lemma file_always_readable : stmt_file_always_readable.
Proof. intros f0 es s Hf H. destruct (reach_inv _ _ _ Hf H) as [D _]. apply (d_valid _ _ _ _ D). Qed.

Lemma restart_enabled : stmt_restart_enabled.
Proof.
  intros f0 es s Hf H Hp. pose proof (file_always_readable f0 es s Hf H) as Hv.
  unfold step. rewrite Hp. destruct (sdisk s) as [|c l|h c l tx]; try discriminate.
  cbn [valid] in Hv. rewrite Hv. discriminate.
Qed.

Lemma stream_contiguous : stmt_stream_contiguous.
Proof.
  intros f0 es s v Hf H Hp. destruct (reach_inv _ _ _ Hf H) as [_ VI]. specialize (VI v Hp).
  destruct (vi_stream _ _ VI) as [Ht Hc _ Hk].
  split; [exact Ht|]. split; [exact Hc|]. destruct Hk as [[_ Hle]|Heq]; lia.
Qed.

Lemma prepare_never_refused : stmt_prepare_never_refused.
Proof.
  intros f0 es s v a Hf H Hp Ha. destruct (reach_inv _ _ _ Hf H) as [_ VI]. specialize (VI v Hp).
  destruct (att_heights _ _ _ VI Ha) as (_ & Hlg & Hpos). lia.
Qed.

(** * non-vacuity: concrete histories *)
Module Examples.
  (** fresh start; blocks 1,2 submitted and confirmed; block 3 broadcast (delivered), crash
      before the answer; restart with a `prepared` file, confirmation times out -> reverted;
      3 and 4 re-submitted in a new transaction; the abandoned transaction is confirmed late
      (duplicate of 3), then the new one.
      Transaction ids 0..3 carry [1;2], [3], [3;4], [3;4]; [cel] lists the newest first. *)
  Definition history : list event :=
    [ERestart; EFetch; EFetch; ERecv false; ERecv false; ETake; EPrepareOk; EDeliver; ERespOk;
     ECelConfirm 0 100; EPollOk;
     EFetch; ERecv false; ETake; EPrepareOk; EDeliver; ECrash;
     ERestart; EFetch; EFetch; EStartupTimeout; ERecv false; ERecv false; ETake;
     EPrepareFail; EPrepareOk; EDeliver; ERespTimeout; ECelConfirm 1 101; EReconfirmTimeout;
     EPrepareOk; EDeliver; ERespOk; ECelConfirm 3 102; EPollOk].

  Example ex_history :
    match run (init Fresh) history with
    | Some s => sdisk s = Started 102 4 /\ conf (cel s) = [3; 4; 3; 1; 2] /\
                map tx_st (cel s) = [Confirmed 102; Pending; Confirmed 101; Confirmed 100]
    | None => False
    end.
  Proof. vm_compute. repeat split; reflexivity. Qed.

  (** a `prepared` file whose transaction did get confirmed is picked up at restart, and the
      heights 1 and 2 the reader fetches again (already covered) are skipped *)
  Definition history2 : list event :=
    [ERestart; EFetch; EFetch; EFetch; ERecv false; ERecv false; ERecv false; ETake;
     EPrepareOk; EDeliver; ECrash; ECelConfirm 0 7;
     ERestart; EFetch; EStartupOk; EFetch; ERecv false; ERecv false].

  Example ex_history2 :
    match run (init (Started 5 0)) history2 with
    | Some s => sdisk s = Started 7 3 /\
                match proc s with
                | Some v => v_last v = 3 /\ batch v = [] /\ chan v = [] /\ reader_next v = 3
                | None => False
                end
    | None => False
    end.
  Proof. vm_compute. repeat split; reflexivity. Qed.

  (** events that are not enabled are refused: no EPollOk before Celestia confirmed *)
  Example ex_not_enabled :
    run (init Fresh) [ERestart; EFetch; ERecv false; ETake; EPrepareOk; EDeliver; ERespOk; EPollOk] = None.
  Proof. vm_compute. reflexivity. Qed.

  (** file level: a crash between the temp write and the rename leaves the old state readable *)
  Example ex_file :
    let d0 := {| f_main := Some (Good (Started 5 10)); f_temp := None |} in
    let '(s, rs) := frun {| disk := d0; mem := None |}
                      [Startup; IntoPrepared 12 99 CrashBeforeRename; Startup;
                       IntoPrepared 10 98 NoCrash; IntoPrepared 12 97 CrashTorn; Startup;
                       IntoPrepared 13 96 NoCrash; Crash; Startup; Confirm 6 NoCrash] in
    rs = [ROk; ROk; ROk; RErr; ROk; ROk; ROk; ROk; ROk; ROk] /\
    read (disk s) = Some (Started 6 13) /\ mem s = Some (HStarted 6 13).
  Proof. vm_compute. repeat split; reflexivity. Qed.
End Examples.
