(** C12 — proofs.  An invariant ([WFI] on inputs, [WFN] on the next submission, [Inv] on the
    state) and the accounting equation emitted ++ held = received, carried through [step] and
    [run]; the statements of BatchSpec.v are projections of [run_init]. *)
From Astria Require Import Base.Lists Relayer.BatchModel Relayer.BatchSpec.

Lemma rd_for_push r l x :
  rd_for r (rd_push l x) = if r =? rd_rollup x then rd_for r l ++ [x] else rd_for r l.
Proof.
  unfold rd_for. induction l as [|[k xs] t IH]; cbn [rd_push find fst snd].
  - rewrite N.eqb_sym. destruct (r =? rd_rollup x); reflexivity.
  - destruct (N.eqb_spec k (rd_rollup x)) as [->|E]; cbn [find fst snd].
    + rewrite N.eqb_sym. destruct (r =? rd_rollup x); reflexivity.
    + destruct (N.eqb_spec k r) as [->|E2]; [|exact IH].
      destruct (N.eqb_spec r (rd_rollup x)); [contradiction|reflexivity].
Qed.

Lemma rd_push_keys l x :
  map fst (rd_push l x) = if existsb (N.eqb (rd_rollup x)) (map fst l) then map fst l
                          else map fst l ++ [rd_rollup x].
Proof.
  induction l as [|[k xs] t IH]; cbn [rd_push map existsb fst app]; [reflexivity|].
  rewrite (N.eqb_sym (rd_rollup x) k).
  destruct (N.eqb_spec k (rd_rollup x)); cbn [map fst orb]; [reflexivity|].
  rewrite IH. destruct (existsb _ _); reflexivity.
Qed.

Lemma rd_push_nodup l x : NoDup (map fst l) -> NoDup (map fst (rd_push l x)).
Proof.
  intros H. rewrite rd_push_keys.
  destruct (existsb (N.eqb (rd_rollup x)) (map fst l)) eqn:E; [exact H|].
  apply (NoDup_Add (Add_app _ _ [])). rewrite app_nil_r. split; [exact H|].
  intros Hin. assert (existsb (N.eqb (rd_rollup x)) (map fst l) = true).
  { apply existsb_exists. exists (rd_rollup x). split; [exact Hin|apply N.eqb_refl]. }
  congruence.
Qed.

Lemma rd_push_nonempty l x :
  (forall e, In e l -> snd e <> []) -> forall e, In e (rd_push l x) -> snd e <> [].
Proof.
  induction l as [|[k xs] t IH]; cbn [rd_push]; intros H e He.
  - destruct He as [<-|[]]. cbn. discriminate.
  - destruct (k =? rd_rollup x).
    + destruct He as [<-|He]; [cbn; destruct xs; discriminate|].
      apply H. right. exact He.
    + destruct He as [<-|He]; [apply (H (k, xs)); left; reflexivity|].
      apply IH; [|exact He]. intros e' He'. apply H. right. exact He'.
Qed.

(** the conclusion of [stmt_filter_only_drops_filtered], said of an input *)
Definition WFI (f : list N) (i : input) : Prop :=
  in_meta i = map meta_of (in_blocks i) /\
  (forall r, rd_for r (in_rd i) = expected_rd f r (in_blocks i)) /\
  NoDup (map fst (in_rd i)) /\
  (forall e, In e (in_rd i) -> snd e <> []).

Lemma WFI_empty f : WFI f empty_input.
Proof.
  unfold WFI, empty_input, expected_rd, rd_for; cbn. repeat split.
  - intros r. destruct (should_include f r); reflexivity.
  - constructor.
  - intros e [].
Qed.

(** the fold inside [extend] *)
Local Notation pushes f xs l :=
  (fold_left (fun acc x => if should_include f (rd_rollup x) then rd_push acc x else acc) xs l).

Lemma pushes_spec f xs : forall l r,
  rd_for r (pushes f xs l) =
  rd_for r l ++ (if should_include f r then filter (fun x => rd_rollup x =? r) xs else []).
Proof.
  induction xs as [|x xs IH]; intros l r; cbn [fold_left filter].
  - destruct (should_include f r); rewrite app_nil_r; reflexivity.
  - rewrite IH. destruct (should_include f (rd_rollup x)) eqn:Ex.
    + rewrite rd_for_push. rewrite (N.eqb_sym (rd_rollup x) r).
      destruct (N.eqb_spec r (rd_rollup x)) as [->|Hne]; [|reflexivity].
      rewrite Ex. rewrite <- app_assoc. reflexivity.
    + destruct (N.eqb_spec (rd_rollup x) r) as [<-|Hne]; [rewrite Ex|]; reflexivity.
Qed.

Lemma WFI_extend f i b : WFI f i -> WFI f (extend f i b).
Proof.
  intros (Hm & Hr & Hn & He). unfold extend, WFI; cbn [in_blocks in_meta in_rd]. repeat split.
  - rewrite Hm, map_app. reflexivity.
  - intros r. rewrite pushes_spec, Hr. unfold expected_rd.
    destruct (should_include f r).
    + rewrite flat_map_app, filter_app. cbn [flat_map]. rewrite app_nil_r. reflexivity.
    + reflexivity.
  - apply fold_left_inv; [|exact Hn]. intros l x H.
    destruct (should_include f (rd_rollup x)); [apply rd_push_nodup|]; exact H.
  - apply (fold_left_inv (fun l => forall e, In e l -> snd e <> [])); [|exact He]. intros l x H.
    destruct (should_include f (rd_rollup x)); [apply rd_push_nonempty|]; exact H.
Qed.

Lemma extend_single f i b : WFI f i -> lenN (in_meta (extend f i b)) = 1 -> in_blocks i = [].
Proof.
  intros (Hm & _). unfold lenN. cbn [extend in_meta]. rewrite Hm, app_length, map_length.
  destruct (in_blocks i); cbn [length]; [reflexivity|lia].
Qed.

(** [empty_nsub] records size 0 whatever [csize []] is: hence the guard *)
Definition WFN (csize : list block -> N) (f : list N) (n : nsub) : Prop :=
  WFI f (ns_input n) /\
  (in_blocks (ns_input n) <> [] ->
     ns_size n = csize (in_blocks (ns_input n)) /\ ns_size n <= MAX_PAYLOAD).

Definition Inv (csize : list block -> N) (s : st) : Prop :=
  WFN csize (filt s) (next s) /\
  (forall b, halted s = Some b -> MAX_PAYLOAD < csize [b]).

Lemma WFN_empty csize f : WFN csize f empty_nsub.
Proof. split; [apply WFI_empty|]. cbn. intros H; contradiction H; reflexivity. Qed.

Lemma Inv_init csize f : Inv csize (init f).
Proof.
  split; [apply WFN_empty|]. intros b H; discriminate.
Qed.

Lemma try_add_cases csize f n b n' r :
  WFN csize f n -> try_add csize f n b = (n', r) ->
  WFN csize f n' /\
  match r with
  | AddOk => in_blocks (ns_input n') = in_blocks (ns_input n) ++ [b]
  | AddFull => n' = n
  | AddOversized => n' = n /\ MAX_PAYLOAD < csize [b]
  end.
Proof.
  intros [Hw Hs] H. unfold try_add in H. set (cand := extend f (ns_input n) b) in *.
  destruct (N.leb_spec (csize (in_blocks cand)) MAX_PAYLOAD) as [Hle|Hgt].
  - injection H as <- <-. split; [split; [apply WFI_extend, Hw|]|reflexivity].
    intros _. split; [reflexivity|exact Hle].
  - rewrite (proj2 (N.ltb_lt _ _) Hgt), andb_true_r in H.
    destruct (N.eqb_spec (lenN (in_meta cand)) 1) as [H1|H1]; injection H as <- <-;
      (split; [split; assumption|]); [split|]; try reflexivity.
    apply (extend_single _ _ _ Hw) in H1.
    unfold cand in Hgt. cbn [extend in_blocks] in Hgt. rewrite H1 in Hgt. exact Hgt.
Qed.

Definition good (csize : list block -> N) (f : list N) (sb : submission) : Prop :=
  WFI f (sub_input sb) /\ sub_blocks sb <> [] /\
  sub_size sb = csize (sub_blocks sb) /\ sub_size sb <= MAX_PAYLOAD.

Lemma take_cases csize f n n' o :
  WFN csize f n -> take n = (n', o) ->
  n' = empty_nsub /\
  match o with
  | None => in_blocks (ns_input n) = []
  | Some sb => sub_blocks sb = in_blocks (ns_input n) /\ good csize f sb
  end.
Proof.
  intros [Hw Hs] H. unfold take in H. pose proof (proj1 Hw) as Hm.
  destruct (in_meta (ns_input n)) eqn:Em; inversion H; subst; clear H; (split; [reflexivity|]).
  - destruct (in_blocks (ns_input n)); [reflexivity|discriminate].
  - unfold sub_blocks, good; cbn [sub_input sub_size]. split; [reflexivity|].
    assert (Hne : in_blocks (ns_input n) <> []) by (intros Hb; rewrite Hb in Hm; discriminate).
    destruct (Hs Hne) as [A B]. unfold sub_blocks; cbn [sub_input].
    split; [exact Hw|]. split; [exact Hne|]. split; assumption.
Qed.

Lemma add_block_spec csize s b s' r :
  Inv csize s -> halted s = None -> pending s = None -> add_block csize s b = (s', r) ->
  Inv csize s' /\ filt s' = filt s /\ held s' = held s ++ [b].
Proof.
  intros (Hn & _) Hhalt Hpend H. unfold add_block in H.
  destruct (try_add csize (filt s) (next s) b) as [n' r'] eqn:Et.
  destruct (try_add_cases _ _ _ _ _ _ Hn Et) as [Hn' Hc].
  destruct r'; injection H as <- <-; unfold held, Inv; cbn [next pending halted filt];
    rewrite Hhalt, Hpend; cbn [opt_list app]; rewrite ?app_nil_r.
  - rewrite Hc. split; [split; [exact Hn'|discriminate]|split; reflexivity].
  - subst n'. split; [split; [exact Hn|discriminate]|split; reflexivity].
  - destruct Hc as [-> Hlt]. split; [split; [exact Hn|]|split; reflexivity].
    intros b0 Hb0. injection Hb0 as <-. exact Hlt.
Qed.

Ltac split4 := split; [|split; [|split]].

Lemma step_quiet csize f (l : list block) o x :
  match x with OHalted | OBusy | ONone => True | _ => False end ->
  emitted [x] ++ l = l ++ received [o] [x] /\
  (forall sb, In sb (submissions [x]) -> good csize f sb).
Proof.
  intros Hx. split; [|destruct x; try contradiction; intros sb []].
  destruct x; try contradiction; destruct o; cbn; rewrite app_nil_r; reflexivity.
Qed.

Lemma step_spec csize s o s' x :
  Inv csize s -> step csize s o = (s', x) ->
  Inv csize s' /\ filt s' = filt s /\
  emitted [x] ++ held s' = held s ++ received [o] [x] /\
  (forall sb, In sb (submissions [x]) -> good csize (filt s) sb).
Proof.
  intros HI H. unfold step in H.
  destruct (halted s) as [hb|] eqn:Eh.
  { injection H as <- <-. split; [exact HI|split; [reflexivity|apply step_quiet, I]]. }
  destruct o as [b|].
  - destruct (pending s) as [p|] eqn:Ep.
    { injection H as <- <-. split; [exact HI|split; [reflexivity|apply step_quiet, I]]. }
    destruct (add_block csize s b) as [s1 r] eqn:Ea. injection H as <- <-.
    destruct (add_block_spec _ _ _ _ _ HI Eh Ep Ea) as (HI' & Hf & Hheld).
    split4; [exact HI'|exact Hf| |].
    + destruct r; cbn [emitted received out_of_add app]; exact Hheld.
    + destruct r; intros sb [].
  - destruct (take (next s)) as [n' osb] eqn:Et.
    destruct (take_cases _ _ _ _ _ (proj1 HI) Et) as [-> Hc].
    destruct osb as [sb|].
    + destruct Hc as [Hsb Hgood].
      (* the take leaves the initial state; a pending block, if any, is all that is held after *)
      change {| next := empty_nsub; pending := None; halted := None; filt := filt s |}
        with (init (filt s)) in H.
      assert (Hs' : exists r, x = OSub sb r /\ Inv csize s' /\ filt s' = filt s /\
                              held s' = opt_list (pending s)).
      { destruct (pending s) as [p|].
        - destruct (add_block csize (init (filt s)) p) as [s2 r] eqn:Ea. injection H as <- <-.
          destruct (add_block_spec _ _ _ _ _ (Inv_init _ _) eq_refl eq_refl Ea) as (HI2 & Hf & Hheld).
          exists (Some r). split4; [reflexivity|exact HI2|exact Hf|exact Hheld].
        - injection H as <- <-. exists None. split4; [reflexivity|apply Inv_init|reflexivity|reflexivity]. }
      destruct Hs' as (r & -> & HI' & Hf & Hheld). split4; [exact HI'|exact Hf| |].
      * cbn [emitted received]. rewrite Hheld. unfold held. rewrite Eh, Hsb. cbn [opt_list].
        rewrite !app_nil_r. reflexivity.
      * intros sb0 [<-|[]]. exact Hgood.
    + injection H as <- <-. split; [exact HI|split; [reflexivity|apply step_quiet, I]].
Qed.

Lemma emitted_cons x xs : emitted (x :: xs) = emitted [x] ++ emitted xs.
Proof. destruct x; cbn [emitted app]; try reflexivity. rewrite app_nil_r. reflexivity. Qed.

Lemma submissions_cons x xs : submissions (x :: xs) = submissions [x] ++ submissions xs.
Proof. destruct x; reflexivity. Qed.

Lemma received_cons o x ops xs : received (o :: ops) (x :: xs) = received [o] [x] ++ received ops xs.
Proof. destruct o; destruct x; reflexivity. Qed.

Lemma run_spec csize ops : forall s,
  Inv csize s ->
  let r := run csize s ops in
  Inv csize (fst r) /\ filt (fst r) = filt s /\
  emitted (snd r) ++ held (fst r) = held s ++ received ops (snd r) /\
  (forall sb, In sb (submissions (snd r)) -> good csize (filt s) sb).
Proof.
  induction ops as [|o ops IH]; intros s HI; cbn [run].
  - split4; [exact HI|reflexivity| |intros sb []].
    cbn. rewrite app_nil_r. reflexivity.
  - destruct (step csize s o) as [s1 x] eqn:Es.
    destruct (step_spec _ _ _ _ _ HI Es) as (HI1 & Hf1 & Ha1 & Hg1).
    specialize (IH s1 HI1). destruct (run csize s1 ops) as [s2 xs]. cbn [fst snd] in *.
    destruct IH as (HI2 & Hf2 & Ha2 & Hg2).
    split4; [exact HI2|congruence| |].
    + rewrite emitted_cons, received_cons, <- app_assoc, Ha2, !app_assoc, Ha1. reflexivity.
    + intros sb Hin. rewrite submissions_cons in Hin. apply in_app_or in Hin.
      destruct Hin as [Hin|Hin]; [apply Hg1; exact Hin|]. rewrite <- Hf1. apply Hg2. exact Hin.
Qed.

Lemma run_init csize f ops :
  let r := run csize (init f) ops in
  Inv csize (fst r) /\ emitted (snd r) ++ held (fst r) = received ops (snd r) /\
  (forall sb, In sb (submissions (snd r)) -> good csize f sb).
Proof.
  destruct (run_spec csize ops (init f) (Inv_init csize f)) as (HI & _ & Ha & Hg).
  split; [exact HI|split; [exact Ha|exact Hg]].
Qed.

Lemma each_block_once_in_order : stmt_each_block_once_in_order.
Proof.
  intros csize f ops. destruct (run_init csize f ops) as (_ & H & _).
  destruct (run csize (init f) ops) as [s' outs]. exact H.
Qed.

Lemma halt_only_oversized : stmt_halt_only_oversized.
Proof.
  intros csize f ops b Hb. destruct (run_init csize f ops) as ((_ & Hh) & _). apply Hh, Hb.
Qed.

Lemma no_block_dropped : stmt_no_block_dropped.
Proof.
  intros csize f ops Hfit. pose proof (each_block_once_in_order csize f ops) as Ha.
  pose proof (halt_only_oversized csize f ops) as Hh.
  destruct (run csize (init f) ops) as [s' outs]. cbn [fst] in Hh.
  assert (Hn : halted s' = None).
  { destruct (halted s') as [b|]; [|reflexivity]. specialize (Hh b eq_refl). specialize (Hfit b). lia. }
  split; [exact Hn|]. unfold held in Ha. rewrite Hn, app_nil_r in Ha. exact Ha.
Qed.

Lemma sorted_app_l {A} (R : A -> A -> Prop) l1 l2 :
  StronglySorted R (l1 ++ l2) -> StronglySorted R l1.
Proof.
  induction l1 as [|a l1 IH]; intros H; [constructor|].
  cbn in H. inversion H; subst. constructor; [apply IH; assumption|].
  rewrite Forall_app in H3. apply H3.
Qed.

Lemma heights_increasing : stmt_heights_increasing.
Proof.
  intros csize f ops. pose proof (each_block_once_in_order csize f ops) as H.
  destruct (run csize (init f) ops) as [s' outs]. intros Hs.
  rewrite <- H, map_app in Hs. eapply sorted_app_l; exact Hs.
Qed.

Lemma submissions_good csize f ops sb :
  In sb (submissions (snd (run csize (init f) ops))) -> good csize f sb.
Proof. apply run_init. Qed.

Lemma payload_bounded : stmt_payload_bounded.
Proof.
  intros csize f ops sb Hin. destruct (submissions_good _ _ _ _ Hin) as (_ & A & B & C).
  repeat split; assumption.
Qed.

Lemma filter_only_drops_filtered : stmt_filter_only_drops_filtered.
Proof.
  intros csize f ops sb Hin. destruct (submissions_good _ _ _ _ Hin) as (Hw & _). exact Hw.
Qed.

Lemma rd_for_select r l :
  NoDup (map fst l) -> flat_map (fun e => if fst e =? r then snd e else []) l = rd_for r l.
Proof.
  induction l as [|[k xs] l IH]; intros Hn; [reflexivity|].
  inversion Hn as [|? ? Hnot Hn']; subst.
  cbn [flat_map fst snd]. rewrite (IH Hn'). unfold rd_for; cbn [find fst snd].
  destruct (N.eqb_spec k r) as [->|Hne]; [|reflexivity].
  destruct (find (fun e => fst e =? r) l) as [e|] eqn:Ef; [exfalso|apply app_nil_r].
  apply find_some in Ef. destruct Ef as [Hin Heq]. apply N.eqb_eq in Heq.
  apply Hnot. cbn [fst]. rewrite <- Heq. apply in_map. exact Hin.
Qed.

Section Decode.
  Variable bytes : Type.
  Variable enc_meta : list meta -> bytes.
  Variable dec_meta : bytes -> option (list meta).
  Variable enc_rd : list rdata -> bytes.
  Variable dec_rd : bytes -> option (list rdata).
  Hypothesis law : CodecLaw bytes enc_meta dec_meta enc_rd dec_rd.

  Local Notation enc := (encode_blob bytes enc_meta enc_rd).

  Lemma decode_headers_blobs i :
    decode_headers bytes dec_meta (map enc (blobs_of i)) = in_meta i.
  Proof.
    destruct law as [Lm _]. unfold decode_headers, blobs_of.
    cbn [map flat_map encode_blob fst snd]. rewrite Lm.
    rewrite <- (app_nil_r (in_meta i)) at 2. f_equal.
    induction (in_rd i) as [|e l IH]; [reflexivity|exact IH].
  Qed.

  Lemma decode_rollup_blobs r i :
    decode_rollup bytes dec_rd r (map enc (blobs_of i)) =
    flat_map (fun e => if fst e =? r then snd e else []) (in_rd i).
  Proof.
    destruct law as [_ Lr]. unfold decode_rollup, blobs_of. cbn [map flat_map encode_blob fst app].
    induction (in_rd i) as [|e l IH]; [reflexivity|].
    cbn [map flat_map encode_blob fst snd]. rewrite IH, Lr. destruct (fst e =? r); reflexivity.
  Qed.

  Lemma decode_good csize f sb : good csize f sb ->
    decode_headers bytes dec_meta (wire_of bytes enc_meta enc_rd sb) = map meta_of (sub_blocks sb) /\
    forall r, decode_rollup bytes dec_rd r (wire_of bytes enc_meta enc_rd sb)
              = expected_rd f r (sub_blocks sb).
  Proof.
    intros ((Hm & Hr & Hn & _) & _). unfold wire_of. split.
    - rewrite decode_headers_blobs. exact Hm.
    - intros r. rewrite decode_rollup_blobs, (rd_for_select r _ Hn). apply Hr.
  Qed.
End Decode.

Lemma decode_inverts_encode : stmt_decode_inverts_encode.
Proof.
  intros bytes em dm er dr law csize f ops sb Hin.
  eapply decode_good; [exact law|]. eapply submissions_good; exact Hin.
Qed.

(** * non-vacuity: concrete runs exercising Full, the pending hand-over, the filter and the
    oversized halt.  The size function is deliberately NOT monotone: a batch of three blocks
    "compresses" better than a batch of two. *)
Module Examples.
  Definition blk (h : N) (rs : list (N * N)) : block :=
    {| bk_height := h; bk_hash := 1000 + h; bk_rollups := rs |}.
  Definition b1 := blk 1 [(7, 11); (8, 12)].
  Definition b2 := blk 2 [(8, 21)].
  Definition b3 := blk 3 [].
  Definition b4 := blk 4 [(7, 41); (9, 42)].
  Definition b5 := blk 5 [(7, 51)].

  (** size by number of blocks: 1 -> 400000, 2 -> 900000, 3 -> 800000 (!), 4+ -> 1200000;
      block 5 alone is oversized *)
  Definition csz (bs : list block) : N :=
    match bs with
    | [b] => if bk_height b =? 5 then 1000001 else 400000
    | [_; _] => 900000
    | [_; _; _] => 800000
    | _ => 1200000
    end.

  Definition ops := [Recv b1; Recv b2; Recv b3; Recv b4; Recv b5; Take; Take; Recv b5; Take].

  Example ex_run :
    let '(s', outs) := run csz (init [7; 9]) ops in
    map (fun o => match o with OAdded => 1 | OFull => 2 | OOversized => 3 | OBusy => 4
                               | OHalted => 5 | ONone => 6 | OSub _ _ => 7 end) outs
      = [1; 1; 1; 2; 4; 7; 7; 3; 5] /\
    map bk_height (emitted outs) = [1; 2; 3; 4] /\
    map bk_height (held s') = [5] /\
    map bk_height (received ops outs) = [1; 2; 3; 4; 5] /\
    halted s' = Some b5.
  Proof. vm_compute. repeat split; reflexivity. Qed.

  (** the first submission: metadata of all three blocks with ALL rollup ids, data of rollup 7
      only (8 is filtered out, 9 does not occur), recorded size 800000 *)
  Example ex_submission :
    match submissions (snd (run csz (init [7; 9]) ops)) with
    | [sb; _] => sub_size sb = 800000 /\
              map m_rollup_ids (in_meta (sub_input sb)) = [[7; 8]; [8]; []] /\
              map fst (in_rd (sub_input sb)) = [7] /\
              map rd_data (rd_for 7 (in_rd (sub_input sb))) = [11] /\
              rd_for 8 (in_rd (sub_input sb)) = []
    | _ => False
    end.
  Proof. vm_compute. repeat split; reflexivity. Qed.

  (** without a filter and with no oversized block everything is eventually submitted *)
  Definition ops2 := [Recv b1; Recv b2; Recv b3; Recv b4; Take; Take; Take].
  Example ex_all_submitted :
    let '(s', outs) := run csz (init []) ops2 in
    map (fun sb => map bk_height (sub_blocks sb)) (submissions outs) = [[1; 2; 3]; [4]] /\
    held s' = [] /\
    map (fun sb => map fst (in_rd (sub_input sb))) (submissions outs) = [[7; 8]; [7; 9]].
  Proof. vm_compute. repeat split; reflexivity. Qed.
End Examples.
