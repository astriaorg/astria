(** C08 — for every leaf sequence of at most 2^62 leaves (more do not fit the 64-bit index
    arithmetic, see [Geo] in MerkleNav) [root] is the RFC 6962 Merkle Tree Hash,
    [construct_proof] is the RFC 6962 audit path, and the path reconstructs the root.

    Invariant: [from_leaves ls] is [lay ls], the in-order array of the RFC split.

    The three loops ([proof_loop], [reconstruct_loop], [push_loop]) climb from a leaf to the
    root of the whole tree.  Each gets a "spine" lemma (by induction on the RFC split, for [push_loop] on [PreL]) that covers
    the part of the climb inside one subtree, from the leaf to the subtree's root.  Since the
    loops return their result only at the very end, the lemmas for the two fuelled loops are
    stated in continuation form: if the loop started at the subtree's root (with the state
    reached there) returns [r], then the loop started at the leaf with [d] more fuel returns
    [r].  [reconstruct_loop] recurses on the path and needs no fuel, so its lemma is an
    equation. *)
From Astria Require Import Merkle.MerkleModel Merkle.MerkleSpec.
From Astria Require Import Merkle.MerkleBits Merkle.MerkleNav Merkle.MerkleLayout.

Section Full.
  Variable D : Type.
  Variable nodeH : D -> D -> D.
  Variables emptyH zeroD : D.

  Local Notation tlen := (tlen D).
  Local Notation get_node := (get_node D).
  Local Notation set_node := (set_node D).
  Local Notation mth_d := (mth_d D nodeH emptyH).
  Local Notation rfc_path_d := (rfc_path_d D nodeH emptyH).
  Local Notation layout_d := (layout_d D nodeH emptyH).
  Local Notation Sub := (Sub D nodeH emptyH).
  Local Notation lay := (lay D nodeH emptyH).
  Local Notation push_loop := (push_loop D nodeH).
  Local Notation push := (push D nodeH zeroD).
  Local Notation proof_loop := (proof_loop D).
  Local Notation reconstruct_loop := (reconstruct_loop D nodeH).

  Lemma proof_loop_mono t n groot f : forall f' ti acc r, (f <= f')%nat ->
    proof_loop f t ti groot n acc = Some r -> proof_loop f' t ti groot n acc = Some r.
  Proof.
    induction f as [|f IH]; intros [|f'] ti acc r Hle H; try discriminate; [lia|].
    cbn [MerkleModel.proof_loop] in *. destruct (ti =? groot); [exact H|].
    destruct (complete_parent_and_sibling ti n) as [[p s]|]; [|discriminate]. cbn [bind] in *.
    destruct (get_node t s) as [h|]; [|discriminate]. apply (IH f'); [lia|exact H].
  Qed.

  (** from leaf [m] of the subtree up to its root, collecting the RFC 6962 path; the loop
      stops at [groot], which is not met below the subtree's root *)
  Lemma proof_spine t n groot d l : forall m off acc f r,
    Sub t off d l -> Geo off d (tlen l) n -> (m < length l)%nat ->
    apart groot off (tlen l) ->
    proof_loop f t (rroot off (tlen l)) groot n (acc ++ rfc_path_d d m l) = Some r ->
    proof_loop (d + f) t (off + 2 * N.of_nat m) groot n acc = Some r.
  Proof.
    revert d l. refine (rfc_split_ind D _ _ _ _); cbv beta.
    - intros l m off acc f r _ HG Hm _ H. destruct (Geo_leaf D off l n HG) as [x ->].
      cbn [length] in Hm. replace m with 0%nat in * by lia.
      cbn [MerkleModel.rfc_path_d] in H. rewrite app_nil_r, rroot_single in H.
      replace (off + 2 * N.of_nat 0) with off by lia. exact H.
    - (* the virtual node is absent *)
      intros d l Hle IH m off acc f r HS HG Hm Hroot H.
      rewrite (rfc_path_skip D nodeH emptyH d m l Hle) in H.
      apply (proof_loop_mono t n groot (d + f)); [lia|].
      exact (IH m off acc f r (Sub_skip _ _ _ _ _ _ _ HS Hle) (Geo_skip_length D _ _ _ _ HG Hle)
               Hm Hroot H).
    - intros d l Hgt IHL IHR m off acc f r HS HG Hm Hroot H.
      pose proof (Node_split D off d l n HG Hgt) as HN.
      pose proof (Sub_left _ _ _ _ _ _ _ HS Hgt) as HSL.
      pose proof (Sub_right _ _ _ _ _ _ _ HS Hgt) as HSR.
      set (lL := firstn (Nat.pow 2 d) l) in *. set (lR := skipn (Nat.pow 2 d) l) in *.
      pose proof (Node_left _ _ _ _ _ _ HN) as HGL. pose proof (Node_right _ _ _ _ _ _ HN) as HGR.
      pose proof (Geo_length D _ _ _ _ HGL) as HbL. pose proof (Geo_length D _ _ _ _ HGR) as HbR.
      destruct (apart_left _ _ _ _ _ _ HN groot Hroot) as (HrootL & HneL).
      destruct (apart_right _ _ _ _ _ _ HN groot Hroot) as (HrootR & HneR).
      apply N.eqb_neq in HneL, HneR.
      replace (S d + f)%nat with (d + S f)%nat by lia.
      destruct (Nat.lt_ge_cases m (Nat.pow 2 d)) as [Hmk|Hmk].
      + (* leaf in the left, perfect subtree: the sibling is the root of the right one *)
        assert (HmL : (m < length lL)%nat) by (unfold lL; rewrite firstn_length; lia).
        apply (IHL m off acc (S f) r HSL HGL HmL HrootL).
        cbn [MerkleModel.proof_loop].
        rewrite HneL, (nav_sibling_of_left _ _ _ _ _ _ HN). cbn [bind].
        rewrite (Sub_root _ _ _ _ _ _ _ HSR HbR). cbn [bind]. rewrite <- app_assoc.
        rewrite (rfc_path_left D nodeH emptyH d m l Hgt Hmk) in H. exact H.
      + (* leaf in the right subtree: the sibling is the root of the left one *)
        assert (HmR : (m - Nat.pow 2 d < length lR)%nat)
          by (unfold lR; rewrite skipn_length; lia).
        rewrite (leaf_index_right off d m Hmk).
        apply (IHR (m - Nat.pow 2 d)%nat (off + P (S d)) acc (S f) r HSR HGR HmR HrootR).
        cbn [MerkleModel.proof_loop].
        rewrite HneR, (nav_sibling_of_right _ _ _ _ _ _ HN). cbn [bind].
        rewrite (Sub_root _ _ _ _ _ _ _ HSL HbL). cbn [bind]. rewrite <- app_assoc.
        rewrite (rfc_path_right D nodeH emptyH d m l Hgt Hmk) in H. exact H.
  Qed.

  (** the same climb for [reconstruct_loop]: it consumes the RFC 6962 path of leaf [m] and
      arrives at the subtree's root with the subtree's hash *)
  Lemma recon_spine n d l : forall m x off rest,
    Geo off d (tlen l) n -> nth_error l m = Some x ->
    reconstruct_loop (rfc_path_d d m l ++ rest) (off + 2 * N.of_nat m) n x
    = reconstruct_loop rest (rroot off (tlen l)) n (mth_d d l).
  Proof.
    revert d l. refine (rfc_split_ind D _ _ _ _); cbv beta.
    - intros l m x off rest HG Hx. destruct (Geo_leaf D off l n HG) as [y ->].
      destruct m as [|m]; [|destruct m; discriminate]. injection Hx as ->.
      cbn [MerkleModel.rfc_path_d MerkleModel.mth_d app].
      rewrite rroot_single. f_equal. lia.
    - intros d l Hle IH m x off rest HG Hx.
      rewrite (mth_skip D nodeH emptyH d l Hle), (rfc_path_skip D nodeH emptyH d m l Hle).
      apply IH; [|exact Hx]. apply Geo_skip_length; assumption.
    - intros d l Hgt IHL IHR m x off rest HG Hx.
      pose proof (Node_split D off d l n HG Hgt) as HN.
      rewrite (mth_node D nodeH emptyH d l Hgt).
      destruct (Nat.lt_ge_cases m (Nat.pow 2 d)) as [Hmk|Hmk].
      + rewrite (rfc_path_left D nodeH emptyH d m l Hgt Hmk), <- app_assoc.
        rewrite (IHL m x off _ (Node_left _ _ _ _ _ _ HN))
          by (rewrite nth_error_firstn_lt; assumption).
        cbn [app MerkleModel.reconstruct_loop].
        rewrite (nav_checked_parent_of_left _ _ _ _ _ _ HN), (pL_ltb_p _ _ _ _ _ _ HN).
        reflexivity.
      + rewrite (rfc_path_right D nodeH emptyH d m l Hgt Hmk), <- app_assoc.
        rewrite (leaf_index_right off d m Hmk).
        rewrite (IHR (m - Nat.pow 2 d)%nat x _ _ (Node_right _ _ _ _ _ _ HN))
          by (rewrite nth_error_skipn_add, <- Hx; f_equal; lia).
        cbn [app MerkleModel.reconstruct_loop].
        rewrite (nav_checked_parent_of_right _ _ _ _ _ _ HN), (pR_ltb_p _ _ _ _ _ _ HN).
        reflexivity.
  Qed.

  (** [PreL d l a]: [a] is the array of the subtree of leaves [l] right after [push] has
      appended the last leaf of [l] and before [push_loop] has recomputed its ancestors.  It
      is [layout_d d l] except at the nodes on the way from that leaf to the root, which hold
      whatever was there ([g]: the [zeroD] placeholder or the hash of the parent before the
      push). *)
  Inductive PreL : nat -> list D -> list D -> Prop :=
  | pre0 x : PreL 0 [x] [x]
  | preskip d l a : (length l <= Nat.pow 2 d)%nat -> PreL d l a -> PreL (S d) l a
  | prenode d l g a :
      (Nat.pow 2 d < length l)%nat -> (length l <= Nat.pow 2 (S d))%nat ->
      PreL d (skipn (Nat.pow 2 d) l) a ->
      PreL (S d) l (layout_d d (firstn (Nat.pow 2 d) l) ++ g :: a).

  Lemma PreL_bounds d l a : PreL d l a ->
    (1 <= length l)%nat /\ (length l <= Nat.pow 2 d)%nat.
  Proof.
    induction 1 as [x|d l a Hle H IH|d l g a Hlo Hhi H IH].
    - cbn. lia.
    - cbn [Nat.pow]. lia.
    - lia.
  Qed.

  Lemma PreL_single d x : PreL d [x] [x].
  Proof.
    induction d as [|d IH]; [constructor|].
    apply preskip; [|exact IH]. cbn [length]. pose proof (pow_pos d). lia.
  Qed.

  (** [prenode] for a sequence given by its two halves *)
  Lemma prenode_app d lL lR g a : length lL = Nat.pow 2 d -> PreL d lR a ->
    PreL (S d) (lL ++ lR) (layout_d d lL ++ g :: a).
  Proof.
    intros HL H. destruct (PreL_bounds d lR a H) as [H1 H2].
    pose proof (prenode d (lL ++ lR) g a) as Hn.
    rewrite firstn_app, skipn_app, <- HL, firstn_all, skipn_all, Nat.sub_diag, app_nil_r in Hn.
    apply Hn; [| |exact H]; rewrite app_length; cbn [Nat.pow]; lia.
  Qed.

  Lemma push_prep d : forall l x, (1 <= length l)%nat -> (length l + 1 <= Nat.pow 2 d)%nat ->
    PreL d (l ++ [x]) (layout_d d l ++ [zeroD; x]).
  Proof.
    induction d as [|d IH]; intros l x H1 Hd; cbn [Nat.pow] in Hd; [lia|].
    pose proof (pow_pos d) as Hk.
    destruct (Nat.lt_trichotomy (length l) (Nat.pow 2 d)) as [Hlt|[Heq|Hgt]].
    - (* the left half has room *)
      apply preskip; [rewrite app_length; cbn [length]; lia|].
      rewrite layout_skip by lia. apply IH; lia.
    - (* the left half is full and [x] begins the right one *)
      rewrite layout_skip by lia. apply (prenode_app d l [x] zeroD [x] Heq), PreL_single.
    - rewrite layout_node by exact Hgt. rewrite <- app_assoc. cbn [app].
      replace (l ++ [x]) with (firstn (Nat.pow 2 d) l ++ skipn (Nat.pow 2 d) l ++ [x])
        by (rewrite app_assoc, firstn_skipn; reflexivity).
      apply prenode_app; [rewrite firstn_length; lia|].
      apply IH; rewrite skipn_length; lia.
  Qed.

  (** one iteration at a node whose two subtrees are already in place *)
  Lemma push_step off d l n pre g groot f :
    Geo off (S d) (tlen l) n -> (Nat.pow 2 d < length l)%nat -> tlen pre = off ->
    push_loop (S f)
      (pre ++ layout_d d (firstn (Nat.pow 2 d) l) ++ g :: layout_d d (skipn (Nat.pow 2 d) l))
      (rroot (off + P (S d)) (tlen (skipn (Nat.pow 2 d) l))) n groot
    = if rroot off (tlen l) =? groot then Some (pre ++ layout_d (S d) l)
      else push_loop f (pre ++ layout_d (S d) l) (rroot off (tlen l)) n groot.
  Proof.
    intros HG Hgt Hpre.
    pose proof (Node_split D off d l n HG Hgt) as HN.
    rewrite (layout_node D nodeH emptyH d l Hgt).
    set (lL := firstn (Nat.pow 2 d) l) in *. set (lR := skipn (Nat.pow 2 d) l) in *.
    set (t := pre ++ layout_d d lL ++ g :: layout_d d lR).
    pose proof (Geo_length D _ _ _ _ (Node_left _ _ _ _ _ _ HN)) as HbL.
    pose proof (Geo_length D _ _ _ _ (Node_right _ _ _ _ _ _ HN)) as HbR.
    pose proof (rroot_p _ _ _ _ _ _ HN) as Hp.
    assert (HtLL : tlen (pre ++ layout_d d lL) = rroot off (tlen l)).
    { pose proof (P_pos (S d)). unfold lL.
      rewrite tlen_app, (layout_left_len D nodeH emptyH d l Hgt). lia. }
    assert (HSL : Sub t off d lL).
    { exists pre, (g :: layout_d d lR). split; [reflexivity|exact Hpre]. }
    assert (HSR : Sub t (off + P (S d)) d lR).
    { exists ((pre ++ layout_d d lL) ++ [g]), []. split.
      - unfold t. rewrite app_nil_r, <- !app_assoc. reflexivity.
      - rewrite tlen_app, HtLL, tlen_cons, tlen_nil. pose proof (P_pos (S d)). lia. }
    cbn [MerkleModel.push_loop]. unfold bind.
    rewrite (nav_parent_of_right _ _ _ _ _ _ HN), (nav_left_child _ _ _ _ _ _ HN),
      (nav_right_child _ _ _ _ _ _ HN).
    rewrite (Sub_root _ _ _ _ _ _ _ HSL HbL), (Sub_root _ _ _ _ _ _ _ HSR HbR).
    unfold t. rewrite <- HtLL, !app_assoc, set_node_app. reflexivity.
  Qed.

  Lemma push_loop_mono f : forall f' t idx n groot r, (f <= f')%nat ->
    push_loop f t idx n groot = Some r -> push_loop f' t idx n groot = Some r.
  Proof.
    induction f as [|f IH]; intros [|f'] t idx n groot r Hle H; try discriminate; [lia|].
    cbn [MerkleModel.push_loop] in *. unfold bind in *.
    destruct (complete_parent idx n) as [i|]; [|discriminate].
    destruct (complete_left_child i) as [cl|]; [|discriminate].
    destruct (complete_right_child i n) as [cr|]; [|discriminate].
    destruct (get_node t cl) as [hl|]; [|discriminate].
    destruct (get_node t cr) as [hr|]; [|discriminate].
    destruct (set_node t i (nodeH hl hr)) as [t'|]; [|discriminate].
    destruct (i =? groot); [exact H|]. apply (IH f'); [lia|exact H].
  Qed.

  (** the same climb for [push_loop], from the new last leaf [n - 1]: the array [a] becomes
      [layout_d d l] on the way.  [push_loop] tests for [groot] after it has written a node,
      hence the [if]; the leaf itself is never tested, hence [groot <> n - 1]. *)
  Lemma push_spine d l a : PreL d l a -> forall pre off n groot f r,
    tlen pre = off -> Geo off d (tlen l) n -> off + 2 * tlen l - 1 = n ->
    apart groot off (tlen l) -> groot <> n - 1 ->
    (if rroot off (tlen l) =? groot then Some (pre ++ layout_d d l)
     else push_loop f (pre ++ layout_d d l) (rroot off (tlen l)) n groot) = Some r ->
    push_loop (d + f) (pre ++ a) (n - 1) n groot = Some r.
  Proof.
    induction 1 as [x|d l a Hle H IH|d l g a Hlo Hhi H IH];
      intros pre off n groot f r Hpre HG Hn Hroot Hlast Hr.
    - cbn [MerkleLayout.layout_d] in Hr. rewrite rroot_single in Hr.
      change (tlen [x]) with 1 in Hn. replace off with (n - 1) in Hr by lia.
      apply N.eqb_neq in Hlast. rewrite N.eqb_sym, Hlast in Hr. exact Hr.
    - rewrite (layout_skip D nodeH emptyH d l Hle) in Hr.
      apply (push_loop_mono (d + f)); [lia|].
      exact (IH pre off n groot f r Hpre (Geo_skip_length D _ _ _ _ HG Hle) Hn Hroot Hlast Hr).
    - pose proof (Node_split D off d l n HG Hlo) as HN.
      destruct (apart_right _ _ _ _ _ _ HN groot Hroot) as (HrootR & HneR).
      apply N.eqb_neq in HneR.
      set (lL := firstn (Nat.pow 2 d) l) in *. set (lR := skipn (Nat.pow 2 d) l) in *.
      assert (Hpre' : tlen (pre ++ layout_d d lL ++ [g]) = off + P (S d)).
      { unfold lL. rewrite !tlen_app, tlen_cons, tlen_nil, (layout_left_len D nodeH emptyH d l Hlo).
        pose proof (P_pos (S d)). lia. }
      assert (Hn' : off + P (S d) + 2 * tlen lR - 1 = n).
      { destruct HN as (HG' & Hc & HcL & ->). pose proof (P_S d). lia. }
      replace (S d + f)%nat with (d + S f)%nat by lia.
      replace (pre ++ layout_d d lL ++ g :: a) with ((pre ++ layout_d d lL ++ [g]) ++ a)
        by (rewrite <- !app_assoc; reflexivity).
      apply (IH _ (off + P (S d)) n groot (S f) r Hpre' (Node_right _ _ _ _ _ _ HN) Hn'
               HrootR Hlast).
      rewrite HneR.
      replace ((pre ++ layout_d d lL ++ [g]) ++ layout_d d lR)
        with (pre ++ layout_d d lL ++ g :: layout_d d lR)
        by (rewrite <- !app_assoc; reflexivity).
      unfold lL, lR. rewrite (push_step off d l n pre g groot f HG Hlo Hpre). exact Hr.
  Qed.

  Lemma Geo_top d c : 1 <= c -> c <= P d -> P d <= 2 ^ 62 -> Geo 0 d c (2 * c - 1).
  Proof.
    intros H1 Hc Hd. pose proof (P_S d) as HS.
    repeat apply conj; try lia. apply N.mod_0_l. pose proof (P_pos (S d)). lia.
  Qed.

  Lemma P_log2_up n : (1 <= n)%nat ->
    N.of_nat n <= P (Nat.log2_up n) /\ P (Nat.log2_up n) < 2 * N.of_nat n /\
    (n <= Nat.pow 2 (Nat.log2_up n))%nat.
  Proof.
    intros Hn. destruct (Nat.eq_dec n 1) as [->|Hne].
    - change (Nat.log2_up 1) with 0%nat. rewrite P_0. cbn. lia.
    - assert (H1 : (1 < n)%nat) by lia.
      pose proof (Nat.log2_up_spec n H1) as [Hlo Hhi].
      pose proof (Nat.log2_up_pos n H1) as Hpos.
      set (e := Nat.log2_up n) in *.
      destruct e as [|e]; [lia|]. cbn [Nat.pred] in Hlo.
      pose proof (P_pow e) as HPe. pose proof (P_pow (S e)) as HPS. pose proof (P_S e) as HS.
      repeat apply conj; lia.
  Qed.

  (** [Tree::push] on a nonempty tree: two placeholders, the leaf in the last one, then the
      loop from there towards the root [g] *)
  Lemma push_enter t x g : t <> [] -> complete_root (tlen t + 2) = Some g ->
    push t x = push_loop 66 (t ++ [zeroD; x]) (tlen t + 2 - 1) (tlen t + 2) g.
  Proof.
    intros Hne Hcr.
    assert (Hn : tlen (t ++ [zeroD; zeroD]) = tlen t + 2) by (rewrite tlen_app; reflexivity).
    assert (Hset : set_node (t ++ [zeroD; zeroD]) (tlen t + 2 - 1) x = Some (t ++ [zeroD; x])).
    { replace (t ++ [zeroD; zeroD]) with ((t ++ [zeroD]) ++ zeroD :: [])
        by (rewrite <- app_assoc; reflexivity).
      replace (tlen t + 2 - 1) with (tlen (t ++ [zeroD]))
        by (rewrite tlen_app, tlen_cons, tlen_nil; lia).
      rewrite set_node_app, <- app_assoc. reflexivity. }
    destruct t as [|y t']; [congruence|]. set (t := y :: t') in *.
    change (push t x) with
      (do idx <- checked_sub (tlen (t ++ [zeroD; zeroD])) 1;
       do t2 <- set_node (t ++ [zeroD; zeroD]) idx x;
       do root <- complete_root (tlen (t ++ [zeroD; zeroD]));
       push_loop 66 t2 idx (tlen (t ++ [zeroD; zeroD])) root).
    assert (Hc : checked_sub (tlen t + 2) 1 = Some (tlen t + 2 - 1))
      by (apply checked_sub_Some; lia).
    unfold bind. rewrite Hn, Hc, Hset, Hcr. reflexivity.
  Qed.

  Lemma push_layout d l x :
    (1 <= length l)%nat -> (length l + 1 <= Nat.pow 2 d)%nat -> P d <= 2 ^ 62 ->
    push (layout_d d l) x = Some (layout_d d (l ++ [x])).
  Proof.
    intros H1 Hd Hmax.
    destruct (P_lt_63 d) as [_ Hd62]; [lia|].
    set (l' := l ++ [x]).
    assert (Hlen' : length l' = (length l + 1)%nat) by (unfold l'; rewrite app_length; reflexivity).
    assert (Hc' : 2 <= tlen l' /\ tlen l' <= P d).
    { split; [unfold MerkleModel.tlen; lia|apply tlen_pow_le; lia]. }
    set (t := layout_d d l).
    assert (Hn : tlen t + 2 = 2 * tlen l' - 1).
    { unfold t. rewrite (layout_len D nodeH emptyH) by lia. unfold MerkleModel.tlen. lia. }
    assert (Hne : t <> []) by (intros E; rewrite E, tlen_nil in Hn; lia).
    rewrite (push_enter t x (rroot 0 (tlen l')) Hne)
      by (rewrite Hn; apply complete_root_spec; lia).
    (* the loop climbs the right spine and stops at the root *)
    apply (push_loop_mono (d + 0)); [lia|].
    apply (push_spine d l' _ (push_prep d l x H1 Hd) [] 0 _ (rroot 0 (tlen l'))).
    - reflexivity.
    - rewrite Hn. apply Geo_top; lia.
    - lia.
    - right. left. reflexivity.
    - pose proof (rroot_lt_last 0 (tlen l')). lia.
    - rewrite N.eqb_refl. reflexivity.
  Qed.

  Lemma from_leaves_acc_layout d r : forall l, (1 <= length l)%nat ->
    (length l + length r <= Nat.pow 2 d)%nat -> P d <= 2 ^ 62 ->
    from_leaves_acc D nodeH zeroD (layout_d d l) r = Some (layout_d d (l ++ r)).
  Proof.
    induction r as [|y r IH]; intros l H1 Hd Hmax.
    - rewrite app_nil_r. reflexivity.
    - cbn [from_leaves_acc length] in *. unfold bind. rewrite push_layout by lia.
      replace (l ++ y :: r) with ((l ++ [y]) ++ r) by (rewrite <- app_assoc; reflexivity).
      apply IH; [| |exact Hmax]; rewrite app_length; cbn [length]; lia.
  Qed.

  Lemma from_leaves_lay ls : tlen ls <= 2 ^ 62 ->
    from_leaves D nodeH zeroD ls = Some (match ls with [] => [] | _ => lay ls end).
  Proof.
    intros Hmax. destruct ls as [|x r]; [reflexivity|].
    destruct (P_log2_up (length (x :: r))) as (_ & Hlo & Hd); [cbn [length]; lia|].
    unfold from_leaves, lay. cbn [from_leaves_acc MerkleModel.push]. unfold bind.
    set (d := Nat.log2_up (length (x :: r))) in *.
    change [x] with (layout_d 0 [x]).
    rewrite (layout_indep D nodeH emptyH 0 d [x]) by (pose proof (pow_pos d); cbn; lia).
    apply (from_leaves_acc_layout d r [x]); [cbn; lia|exact Hd|].
    apply P_lt_63. unfold MerkleModel.tlen in Hmax. lia.
  Qed.

  (** never unfolded to a unary numeral: only used through [bound_N] *)
  Local Notation FULL_BOUND := (N.to_nat (2 ^ 62)).

  Lemma bound_N (ls : list D) : (length ls <= FULL_BOUND)%nat -> tlen ls <= 2 ^ 62.
  Proof. unfold MerkleModel.tlen. lia. Qed.

  Lemma tlen_lay ls : (1 <= length ls)%nat -> tlen (lay ls) = 2 * tlen ls - 1.
  Proof. intros H1. apply layout_len, P_log2_up, H1. Qed.

  Lemma lay_Geo ls : (1 <= length ls)%nat -> tlen ls <= 2 ^ 62 ->
    Geo 0 (Nat.log2_up (length ls)) (tlen ls) (tlen (lay ls)).
  Proof.
    intros H1 Hmax. pose proof (P_log2_up (length ls) H1) as Hlog. fold (tlen ls) in Hlog.
    rewrite (tlen_lay ls H1). apply Geo_top; [unfold MerkleModel.tlen; lia|lia|].
    apply P_lt_63. lia.
  Qed.

  Lemma lay_complete_root ls : (1 <= length ls)%nat -> tlen ls <= 2 ^ 62 ->
    complete_root (tlen (lay ls)) = Some (rroot 0 (tlen ls)).
  Proof.
    intros H1 Hmax. rewrite (tlen_lay ls H1).
    apply complete_root_spec; [unfold MerkleModel.tlen; lia|exact Hmax].
  Qed.

  Theorem root_is_mth : stmt_root_is_mth D nodeH emptyH zeroD FULL_BOUND.
  Proof.
    intros ls Hlen. apply bound_N in Hlen.
    rewrite (from_leaves_lay ls Hlen).
    destruct ls as [|x r]; [exists []; split; reflexivity|].
    set (ls := x :: r) in *.
    assert (H1 : (1 <= length ls)%nat) by (cbn; lia).
    exists (lay ls). split; [reflexivity|].
    pose proof (lay_complete_root ls H1 Hlen) as Hcr.
    pose proof (tlen_lay ls H1) as Hn. unfold MerkleModel.root.
    destruct (lay ls) as [|y t'] eqn:E; [rewrite tlen_nil in Hn; unfold MerkleModel.tlen in Hn; lia|].
    unfold bind. rewrite Hcr, <- E.
    exact (Sub_root _ _ _ _ _ _ _ (Sub_whole D nodeH emptyH _ ls)
             (Geo_length D _ _ _ _ (lay_Geo ls H1 Hlen))).
  Qed.

  Theorem proof_complete : stmt_proof_complete D nodeH emptyH zeroD FULL_BOUND.
  Proof.
    intros ls t i x Hlen Hfl Hx. apply bound_N in Hlen.
    rewrite (from_leaves_lay ls Hlen) in Hfl.
    assert (Hi : (i < length ls)%nat) by (apply nth_error_Some; congruence).
    assert (H1 : (1 <= length ls)%nat) by lia.
    assert (Ht : t = lay ls).
    { destruct ls; [cbn in H1; lia|]. congruence. }
    subst t.
    pose proof (tlen_lay ls H1) as Hn. pose proof (lay_Geo ls H1 Hlen) as HG.
    pose proof (lay_complete_root ls H1 Hlen) as Hcr. pose proof (Geo_depth _ _ _ _ HG) as Hd62.
    set (d := Nat.log2_up (length ls)) in *.
    set (n := tlen (lay ls)) in *.
    assert (HiN : N.of_nat i < tlen ls) by (unfold MerkleModel.tlen; lia).
    exists {| audit_path := rfc_path_d d i ls; leaf_index := N.of_nat i; tree_size := n |}.
    assert (Hmul : checked_mul MAXU (N.of_nat i) 2 = Some (0 + 2 * N.of_nat i)).
    { pose proof MAXU_ones. apply checked_mul_Some. lia. }
    split; [|split; [reflexivity|split; [reflexivity|split; [reflexivity|]]]].
    - unfold MerkleModel.construct_proof. fold n.
      assert (Hn0 : n =? 0 = false) by (apply N.eqb_neq; lia).
      rewrite Hn0. unfold is_leaf_index_in_tree, leaf_index_to_tree_index. rewrite Hmul.
      assert (Hlt : 0 + 2 * N.of_nat i <? n = true) by (apply N.ltb_lt; lia).
      rewrite Hlt. cbn [negb]. unfold bind. rewrite Hcr.
      assert (Hpl : proof_loop 66 (lay ls) (0 + 2 * N.of_nat i) (rroot 0 (tlen ls)) n []
                    = Some (rfc_path_d d i ls)).
      { apply (proof_loop_mono _ _ _ (d + 1)); [lia|].
        apply (proof_spine (lay ls) n (rroot 0 (tlen ls)) d ls i 0 [] 1 _
                 (Sub_whole D nodeH emptyH d ls) HG Hi).
        - right. left. reflexivity.
        - cbn [MerkleModel.proof_loop app]. rewrite N.eqb_refl. reflexivity. }
      rewrite Hpl. reflexivity.
    - unfold MerkleModel.reconstruct_root, bind, leaf_index_to_tree_index.
      cbn [audit_path leaf_index tree_size]. rewrite Hmul.
      rewrite <- (app_nil_r (rfc_path_d d i ls)).
      rewrite (recon_spine n d ls i x 0 [] HG Hx).
      reflexivity.
  Qed.
End Full.

Check root_is_mth
  : forall (D : Type) (nodeH : D -> D -> D) (emptyH zeroD : D),
    stmt_root_is_mth D nodeH emptyH zeroD (N.to_nat (2 ^ 62)).
Check proof_complete
  : forall (D : Type) (nodeH : D -> D -> D) (emptyH zeroD : D),
    stmt_proof_complete D nodeH emptyH zeroD (N.to_nat (2 ^ 62)).
Print Assumptions root_is_mth.
Print Assumptions proof_complete.
