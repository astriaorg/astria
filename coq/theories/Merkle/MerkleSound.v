(** C08 -- soundness of Merkle audit-proof verification: two accepted proofs that differ
    (in the leaf hash, or in the audit path) exhibit an explicit collision of the node hash;
    the accepted root is unique. *)
From Astria Require Import Merkle.MerkleSpec.

Section Sound.
  Variable D : Type.
  Variable nodeH : D -> D -> D.
  Variable eqD : D -> D -> bool.

  Local Notation Collision := (Collision D nodeH).
  Local Notation EqDSpec := (EqDSpec D eqD).
  Local Notation reconstruct_loop := (reconstruct_loop D nodeH).
  Local Notation reconstruct_root := (reconstruct_root D nodeH).
  Local Notation verify := (verify D nodeH eqD).

  Hypothesis Heq : EqDSpec.

  Lemma eqD_dec (a b : D) : a = b \/ a <> b.
  Proof.
    destruct (eqD a b) eqn:E.
    - left. apply Heq. exact E.
    - right. intros Hab. apply Heq in Hab. congruence.
  Qed.

  Lemma nodeH_inj_or_collision a b c d :
    nodeH a b = nodeH c d -> (a = c /\ b = d) \/ Collision.
  Proof.
    intros Hh.
    destruct (eqD_dec a c) as [Hac|Hac].
    - destruct (eqD_dec b d) as [Hbd|Hbd].
      + left. split; assumption.
      + right. exists a, b, c, d. split; [|exact Hh].
        intros Hp. inversion Hp. contradiction.
    - right. exists a, b, c, d. split; [|exact Hh].
      intros Hp. inversion Hp. contradiction.
  Qed.

  (** one level of the reconstruction: [b] tells on which side the sibling [s] is hashed *)
  Lemma level_inj (b : bool) acc acc' s s' (r r' : list D) :
    ((if b then nodeH acc s else nodeH s acc) = (if b then nodeH acc' s' else nodeH s' acc')
     /\ r = r') \/ Collision ->
    (acc = acc' /\ s :: r = s' :: r') \/ Collision.
  Proof.
    intros [[Hacc ->]|Hc]; [|right; exact Hc].
    destruct b; destruct (nodeH_inj_or_collision _ _ _ _ Hacc) as [[-> ->]|Hc];
      (left; split; reflexivity) || (right; exact Hc).
  Qed.

  (** the central induction: the sequence of indices and directions depends on (i, n) only *)
  Lemma reconstruct_loop_inj n :
    forall path path' i acc acc' x,
      length path = length path' ->
      reconstruct_loop path i n acc = Some x ->
      reconstruct_loop path' i n acc' = Some x ->
      (acc = acc' /\ path = path') \/ Collision.
  Proof.
    induction path as [|s r IH]; intros path' i acc acc' x Hlen H1 H2.
    - destruct path' as [|s' r']; [|discriminate Hlen].
      cbn [MerkleModel.reconstruct_loop] in H1, H2.
      left. split; [congruence|reflexivity].
    - destruct path' as [|s' r']; [discriminate Hlen|].
      cbn [length] in Hlen. injection Hlen as Hlen.
      cbn [MerkleModel.reconstruct_loop] in H1, H2.
      destruct (checked_complete_parent i n) as [[p|]|]; [| |discriminate H1].
      + apply (level_inj (i <? p)), (IH r' p _ _ x Hlen H1 H2).
      + apply (level_inj true), (IH r' i _ _ x Hlen H1 H2).
  Qed.

  Lemma verify_true_inv p l r :
    verify p l r = Some true -> reconstruct_root p l = Some r.
  Proof.
    unfold MerkleModel.verify, bind. intros H.
    destruct (reconstruct_root p l) as [x|]; [|discriminate H].
    injection H as H. apply Heq in H. rewrite H. reflexivity.
  Qed.

  Lemma reconstruct_root_inv p l r :
    reconstruct_root p l = Some r ->
    exists i, reconstruct_loop (audit_path p) i (tree_size p) l = Some r.
  Proof.
    unfold MerkleModel.reconstruct_root, bind. intros H.
    destruct (leaf_index_to_tree_index (leaf_index p)) as [i|]; [|discriminate H].
    exists i. exact H.
  Qed.
End Sound.

(** Two accepted proofs for the same position, with audit paths of the same length, against
    the same root: the same leaf hash and the same path, or a collision. *)
Theorem sound_pair (D : Type) (nodeH : D -> D -> D) (eqD : D -> D -> bool) :
  EqDSpec D eqD -> forall path path' li n l l' r,
    length path = length path' ->
    verify D nodeH eqD {| audit_path := path; leaf_index := li; tree_size := n |} l r = Some true ->
    verify D nodeH eqD {| audit_path := path'; leaf_index := li; tree_size := n |} l' r = Some true ->
    (l = l' /\ path = path') \/ Collision D nodeH.
Proof.
  intros Heq path path' li n l l' r Hlen H1 H2.
  apply (verify_true_inv D nodeH eqD Heq) in H1, H2.
  unfold reconstruct_root, bind in H1, H2. cbn [audit_path leaf_index tree_size] in H1, H2.
  destruct (leaf_index_to_tree_index li) as [i|]; [|discriminate H1].
  exact (reconstruct_loop_inj D nodeH eqD Heq n _ _ _ _ _ _ Hlen H1 H2).
Qed.

Theorem sound_leaf : forall (D : Type) (nodeH : D -> D -> D) (eqD : D -> D -> bool),
  stmt_sound_leaf D nodeH eqD.
Proof.
  intros D nodeH eqD Heq [path li n] l l' r H1 H2.
  destruct (sound_pair D nodeH eqD Heq path path li n l l' r eq_refl H1 H2) as [[Hl _]|Hc].
  - left. exact Hl.
  - right. exact Hc.
Qed.

Theorem sound_path : forall (D : Type) (nodeH : D -> D -> D) (eqD : D -> D -> bool),
  stmt_sound_path D nodeH eqD.
Proof.
  intros D nodeH eqD Heq path path' li n l r Hlen H1 H2.
  destruct (sound_pair D nodeH eqD Heq path path' li n l l r Hlen H1 H2) as [[_ Hp]|Hc].
  - left. exact Hp.
  - right. exact Hc.
Qed.

Theorem sound_root : forall (D : Type) (nodeH : D -> D -> D) (eqD : D -> D -> bool),
  stmt_sound_root D nodeH eqD.
Proof.
  intros D nodeH eqD Heq p l r r' H1 H2.
  apply (verify_true_inv D nodeH eqD Heq) in H1, H2.
  congruence.
Qed.

Print Assumptions sound_leaf.
Print Assumptions sound_path.
Print Assumptions sound_root.
