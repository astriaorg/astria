(** C08 — navigation in the flat in-order tree: [perfect_parent] and the two
    [perfect_*_child] on perfect subtrees, then [complete_root], [complete_parent],
    [complete_left_child], [complete_right_child] and [checked_complete_parent] computed on the
    RFC 6962 split of a leaf range. *)
From Astria Require Import Merkle.MerkleModel Merkle.MerkleBits.

Definition P (d : nat) : N := 2 ^ N.of_nat d.

Lemma P_0 : P 0 = 1.
Proof. reflexivity. Qed.

Lemma P_S d : P (S d) = 2 * P d.
Proof. unfold P. rewrite Nat2N.inj_succ. apply N.pow_succ_r'. Qed.

Lemma P_pos d : 0 < P d.
Proof. apply pow2_pos. Qed.

Lemma P_le a b : (a <= b)%nat -> P a <= P b.
Proof. intros H. apply pow2_le. lia. Qed.

Lemma P_lt a b : (a < b)%nat -> P a < P b.
Proof. intros H. apply pow2_lt. lia. Qed.

Lemma P_lt_inv a b : P a < P b -> (a < b)%nat.
Proof.
  intros H. destruct (Nat.lt_ge_cases a b) as [Hlt|Hge]; [exact Hlt|].
  apply P_le in Hge. lia.
Qed.

Lemma P_63 : P 63 = 2 ^ 63.
Proof. reflexivity. Qed.

Lemma P_lt_63 d : P d < 2 ^ 63 -> P d <= 2 ^ 62 /\ (d <= 62)%nat.
Proof.
  rewrite <- P_63. intros H. apply P_lt_inv in H. split; [|lia].
  change (2 ^ 62) with (P 62). apply P_le. lia.
Qed.

Lemma P_mod_weaken off a b : (a <= b)%nat -> off mod P b = 0 -> off mod P a = 0.
Proof.
  intros Hab Hb. unfold P in *.
  apply N.mod_divide in Hb; [|apply N.pow_nonzero; discriminate].
  apply N.mod_divide; [apply N.pow_nonzero; discriminate|].
  destruct Hb as [q Hq]. exists (q * 2 ^ (N.of_nat b - N.of_nat a)).
  rewrite <- N.mul_assoc, <- N.pow_add_r.
  replace (N.of_nat b - N.of_nat a + N.of_nat a) with (N.of_nat b) by lia. exact Hq.
Qed.

Lemma P_mod_add off a b : (a <= b)%nat -> off mod P b = 0 -> (off + P b) mod P a = 0.
Proof.
  intros Hab H. apply (P_mod_weaken _ a b Hab). pose proof (P_pos b) as Hp.
  rewrite <- N.add_mod_idemp_r, N.mod_same, N.add_0_r by lia. exact H.
Qed.

(** The index with exactly [d] trailing one bits is [off + P d - 1] with [P e | off] for some
    [e > d]; [TrailingOnes] says what the bit operations of the navigation do to it. *)
Lemma ones_tb off d e b : (d <= e)%nat -> off mod P e = 0 -> b < N.of_nat e ->
  N.testbit (off + P d - 1) b = (b <? N.of_nat d).
Proof.
  intros Hde Hal Hb. pose proof (P_pos d) as Hp.
  replace (off + P d - 1) with (off + (P d - 1)) by lia.
  apply (tb_off_ones off (N.of_nat d) (N.of_nat e)); [exact Hal|lia|exact Hb].
Qed.

Lemma shl64_P d : P (S d) < 2 ^ 64 -> shl64 (P d) 1 = P (S d).
Proof. rewrite P_S. apply shl64_1. Qed.

Lemma shiftr_P d : N.shiftr (P (S d)) 1 = P d.
Proof. rewrite P_S. apply shiftr_1_double. Qed.

Section TrailingOnes.
  Variables (off : N) (d e : nat).
  Hypothesis Hde : (d < e)%nat.
  Hypothesis Hal : off mod P e = 0.
  Hypothesis Hbd : off + P e <= 2 ^ 64.

  Lemma ones_fit : off + P (S d) <= 2 ^ 64.
  Proof. assert (P (S d) <= P e) by (apply P_le; lia). lia. Qed.

  Lemma ones_last_zero_bit : last_zero_bit (off + P d - 1) = Some (P d).
  Proof.
    pose proof ones_fit as Hb. pose proof (P_S d) as HS. pose proof (P_pos d) as Hp.
    pose proof MAXU_ones as HM. assert (Hm : off + P d <= MAXU) by lia.
    apply (last_zero_bit_spec off (N.of_nat d) (N.of_nat e)); [lia|exact Hal|exact Hm].
  Qed.

  Lemma ones_set : N.lor (off + P d - 1) (P d) = off + P (S d) - 1.
  Proof.
    clear Hbd. pose proof (P_pos d) as Hp. rewrite P_S.
    unfold P at 2. rewrite lor_pow2; [fold (P d); lia|].
    rewrite (ones_tb off d e) by (assumption || lia). apply N.ltb_irrefl.
  Qed.

  Lemma ones_mask_above : N.land (off + P d - 1) (lnot64 (P d)) = off + P d - 1.
  Proof.
    pose proof ones_fit as Hb. pose proof (P_S d) as HS. pose proof (P_pos d) as Hp.
    apply mask_pow2_clear; [lia|].
    rewrite (ones_tb off d e) by (assumption || lia). apply N.ltb_irrefl.
  Qed.

  Lemma ones_mask_top : N.land (off + P (S d) - 1) (lnot64 (P d)) = off + P d - 1.
  Proof.
    pose proof ones_fit as Hb. pose proof (P_S d) as HS. pose proof (P_pos d) as Hp.
    unfold P at 2. rewrite mask_pow2_set; [fold (P d); lia|lia|].
    rewrite (ones_tb off (S d) e) by (assumption || lia). apply N.ltb_lt. lia.
  Qed.
End TrailingOnes.

(** [off + c * P (S d) + P d - 1] is the left ([c = 0]) or right ([c = 1]) child of
    [off + P (S d) - 1] when [P (S (S d)) | off]. *)
Section PerfectSubtree.
  Variables (off : N) (d : nat).
  Hypothesis Hal : off mod P (S (S d)) = 0.
  Hypothesis Hbd : off + P (S (S d)) <= 2 ^ 64.

  Local Notation offR := (off + P (S d)).

  Lemma aligned_right : offR mod P (S d) = 0.
  Proof. apply (P_mod_add off (S d) (S d)), (P_mod_weaken off (S d) (S (S d))); auto. Qed.

  Lemma right_end : offR + P (S d) = off + P (S (S d)).
  Proof. rewrite (P_S (S d)). lia. Qed.

  Lemma right_fits : offR + P (S d) <= 2 ^ 64.
  Proof. rewrite right_end. exact Hbd. Qed.

  Lemma parent_small : P (S d) < 2 ^ 64.
  Proof. pose proof (P_S (S d)). pose proof (P_pos (S d)). lia. Qed.

  (** left child root -> parent: bit [d] is set, bit [d+1] was clear already *)
  Lemma perfect_parent_left : perfect_parent (off + P d - 1) = Some (off + P (S d) - 1).
  Proof.
    unfold perfect_parent, bind.
    rewrite (ones_last_zero_bit off d (S (S d))), (shl64_P d parent_small), N.lor_comm,
      (ones_set off d (S (S d))), (ones_mask_above off (S d) (S (S d))) by (assumption || lia).
    reflexivity.
  Qed.

  (** right child root -> parent: bit [d] is set, bit [d+1] is cleared *)
  Lemma perfect_parent_right : perfect_parent (offR + P d - 1) = Some (off + P (S d) - 1).
  Proof.
    pose proof aligned_right as HalR. pose proof right_fits as HbR.
    unfold perfect_parent, bind.
    rewrite (ones_last_zero_bit offR d (S d)), (shl64_P d parent_small), N.lor_comm,
      (ones_set offR d (S d)), right_end by (assumption || lia).
    apply f_equal, (ones_mask_top off (S d) (S (S d))); assumption || lia.
  Qed.

  Lemma is_branch_root : is_branch (off + P (S d) - 1) = true.
  Proof.
    clear Hbd. rewrite is_branch_bit0, (ones_tb off (S d) (S (S d))) by (assumption || lia).
    reflexivity.
  Qed.

  Lemma last_zero_bit_root : last_zero_bit (off + P (S d) - 1) = Some (P (S d)).
  Proof. apply (ones_last_zero_bit off (S d) (S (S d))); assumption || lia. Qed.

  (** parent -> left child root: bit [d] is cleared *)
  Lemma perfect_left_child_spec :
    perfect_left_child (off + P (S d) - 1) = Some (off + P d - 1).
  Proof.
    unfold perfect_left_child, bind.
    rewrite is_branch_root. cbn [assert]. rewrite last_zero_bit_root, shiftr_P.
    apply f_equal, (ones_mask_top off d (S (S d))); assumption || lia.
  Qed.

  (** parent -> right child root: bit [d+1] is set, bit [d] is cleared *)
  Lemma perfect_right_child_spec :
    perfect_right_child (off + P (S d) - 1) = Some (offR + P d - 1).
  Proof.
    pose proof aligned_right as HalR. pose proof right_fits as HbR.
    unfold perfect_right_child, bind.
    rewrite is_branch_root. cbn [assert].
    rewrite last_zero_bit_root, shiftr_P, (ones_set off (S d) (S (S d))), <- right_end
      by (assumption || lia).
    apply f_equal, (ones_mask_top offR d (S d)); assumption || lia.
  Qed.
End PerfectSubtree.

Definition lg (m : N) : nat := N.to_nat (N.log2_up m).

Lemma P_lg m : P (lg m) = 2 ^ N.log2_up m.
Proof. unfold P, lg. rewrite N2Nat.id. reflexivity. Qed.

Lemma lg_spec m : 1 <= m -> m <= P (lg m) /\ P (lg m) < 2 * m.
Proof.
  intros Hm. rewrite P_lg.
  destruct (N.eq_dec m 1) as [->|Hne].
  - change (N.log2_up 1) with 0. change (2 ^ 0) with 1. lia.
  - assert (H1 : 1 < m) by lia.
    pose proof (N.log2_up_spec m H1) as [Hlo Hhi].
    pose proof (N.log2_up_pos m H1) as Hpos.
    split; [exact Hhi|].
    replace (N.log2_up m) with (N.succ (N.pred (N.log2_up m))) by lia.
    rewrite N.pow_succ_r'. lia.
Qed.

Lemma lg_unique m e : m <= P e -> P e < 2 * m -> lg m = e.
Proof.
  intros Hhi Hlo. destruct e as [|e].
  - rewrite P_0 in *. assert (m = 1) by lia. subst. reflexivity.
  - rewrite P_S in Hlo. unfold lg.
    rewrite (N.log2_up_unique m (N.of_nat (S e))).
    + apply Nat2N.id.
    + lia.
    + split.
      * replace (N.pred (N.of_nat (S e))) with (N.of_nat e) by lia.
        fold (P e). lia.
      * exact Hhi.
Qed.

Lemma lg_le m d : 1 <= m -> m <= P d -> (lg m <= d)%nat.
Proof.
  intros Hm Hd. pose proof (lg_spec m Hm) as [_ Hlo].
  destruct (Nat.le_gt_cases (lg m) d) as [H|H]; [exact H|].
  assert (Hle : P (S d) <= P (lg m)) by (apply P_le; lia).
  rewrite P_S in Hle. lia.
Qed.

(** the index of the real root of a subtree of [c] leaves at [off] *)
Definition rroot (off c : N) : N := off + P (lg c) - 1.

Lemma rroot_P off e : rroot off (P e) = off + P e - 1.
Proof.
  unfold rroot. rewrite (lg_unique (P e) e); [reflexivity|lia|pose proof (P_pos e); lia].
Qed.

Lemma rroot_S off d c : P d < c -> c <= P (S d) -> rroot off c = off + P (S d) - 1.
Proof.
  intros Hlo Hhi. pose proof (P_S d) as HS.
  unfold rroot. rewrite (lg_unique c (S d)) by lia. reflexivity.
Qed.

Lemma rroot_add off c : rroot off c = off + rroot 0 c.
Proof. pose proof (P_pos (lg c)). unfold rroot. lia. Qed.

Lemma rroot_range off c : 1 <= c -> off <= rroot off c /\ rroot off c < off + 2 * c - 1.
Proof.
  intros Hc. pose proof (lg_spec c Hc). pose proof (P_pos (lg c)). unfold rroot. lia.
Qed.

Lemma rroot_lt_last off c : 2 <= c -> rroot off c < off + 2 * c - 2.
Proof.
  intros Hc. assert (H1 : 1 <= c) by lia. pose proof (lg_spec c H1) as [Hhi Hlo]. unfold rroot.
  (* [P (lg c)] is even, so it is not [2c - 1] *)
  destruct (lg c) as [|e]; [rewrite P_0 in Hhi|rewrite P_S in *]; lia.
Qed.

Lemma next_power_of_two_spec x :
  1 < x -> 2 ^ N.log2_up x <= MAXU -> next_power_of_two x = Some (2 ^ N.log2_up x).
Proof.
  intros Hx Hle. unfold next_power_of_two.
  destruct (N.leb_spec x 1) as [H|H]; [lia|].
  destruct (N.leb_spec (2 ^ N.log2_up x) MAXU) as [H'|H']; [reflexivity|lia].
Qed.

Lemma wrapping_add1_small x : x + 1 < 2 ^ 64 -> wrapping_add1 x = x + 1.
Proof. apply N.mod_small. Qed.

Lemma is_perfect_spec e : 2 * P e < 2 ^ 64 -> is_perfect (2 * P e - 1) = Some true.
Proof.
  intros Hlt. pose proof (P_pos e) as Hp. pose proof MAXU_ones as HM. unfold is_perfect.
  destruct (N.eqb_spec (2 * P e - 1) 1) as [H1|H1]; [reflexivity|].
  assert (Hl : 2 ^ N.log2_up (2 * P e - 1) = 2 * P e).
  { rewrite <- P_S, <- P_lg. f_equal. apply lg_unique; rewrite P_S; lia. }
  unfold bind. rewrite next_power_of_two_spec, Hl, wrapping_add1_small by (rewrite ?Hl; lia).
  f_equal. apply N.eqb_eq. lia.
Qed.

(** [m <= 2^62]: [complete_root] computes [next_power_of_two (2 m)], up to [4 m], which must
    fit a [usize].  The bound is tight: for [2^62 + 1] leaves that power is [2^64] and
    [complete_root], hence [push], panics. *)
Lemma complete_root_spec m :
  1 <= m -> m <= 2 ^ 62 -> complete_root (2 * m - 1) = Some (rroot 0 m).
Proof.
  intros Hm Hmax. pose proof (lg_spec m Hm) as [Hhi Hlo]. pose proof MAXU_ones as HM.
  assert (Hl : 2 ^ N.log2_up (2 * m) = 2 * P (lg m)).
  { rewrite N.log2_up_double, N.pow_succ_r', P_lg by lia. reflexivity. }
  unfold complete_root, perfect_root, bind.
  rewrite wrapping_add1_small by lia. replace (2 * m - 1 + 1) with (2 * m) by lia.
  rewrite next_power_of_two_spec, Hl, is_perfect_spec by (rewrite ?Hl; lia).
  cbn [assert]. f_equal. unfold rroot.
  rewrite N.shiftr_div_pow2. symmetry. apply (N.div_unique _ (2 ^ 1) _ 1); lia.
Qed.

Lemma complete_parent_loop_mono f : forall f' i n p, (f <= f')%nat ->
  complete_parent_loop f i n = Some p -> complete_parent_loop f' i n = Some p.
Proof.
  induction f as [|f IH]; intros [|f'] i n p Hle H; try discriminate; [lia|].
  cbn [complete_parent_loop] in *. unfold bind in *.
  destruct (perfect_parent i) as [q|]; [|discriminate].
  destruct (q <? n); [exact H|]. apply (IH f'); [lia|exact H].
Qed.

Lemma checked_loop_of_loop fuel : forall i n p,
  complete_parent_loop fuel i n = Some p ->
  checked_complete_parent_loop fuel i n = Some (Some p).
Proof.
  induction fuel as [|f IH]; intros i n p H; [discriminate|].
  cbn [complete_parent_loop checked_complete_parent_loop] in *.
  unfold perfect_parent, last_zero_bit, bind in H.
  destruct (checked_add MAXU i 1) as [i1|]; [|discriminate].
  destruct (last_set_bit i1) as [z|]; [|discriminate].
  destruct (N.land (N.lor z i) (lnot64 (shl64 z 1)) <? n); [congruence|].
  apply IH. exact H.
Qed.

Lemma checked_of_complete_parent i n p :
  complete_parent i n = Some p -> checked_complete_parent i n = Some (Some p).
Proof. apply checked_loop_of_loop. Qed.

(** [Geo off d c n]: the [c] leaves of the subtree occupy the indices
    [off, off + 2c - 1) of a tree of [n] nodes; the enclosing virtual perfect tree has
    depth [d]; the subtree is perfect or reaches the end of the array.  The last conjunct
    keeps [complete_root] of any subtree below (see [complete_root_spec]) and every index
    arithmetic within 64 bits; at [off = 0] it says [c <= P d <= 2^62]. *)
Definition Geo (off : N) (d : nat) (c n : N) : Prop :=
  off mod P (S d) = 0 /\ 1 <= c /\ c <= P d /\
  (c = P d /\ off + 2 * c - 1 <= n \/ off + 2 * c - 1 = n) /\
  off + P (S d) <= 2 ^ 63.

Lemma Geo_depth off d c n : Geo off d c n -> (d <= 62)%nat.
Proof.
  intros (Hal & H1 & Hc & Hend & Hb). pose proof (P_S d). pose proof (P_pos d).
  apply P_lt_63. lia.
Qed.

(** [g] is not a node strictly below the root of the subtree of [c] leaves at [off] *)
Definition apart (g off c : N) : Prop :=
  g < off \/ g = rroot off c \/ off + 2 * c - 1 <= g.

(** [Node off d c cL cR n]: the subtree of [c] leaves at [off] has its root at depth [S d];
    the RFC split puts [cL = 2^d] leaves to its left and the other [cR] to its right. *)
Definition Node (off : N) (d : nat) (c cL cR n : N) : Prop :=
  Geo off (S d) c n /\ P d < c /\ cL = P d /\ cR = c - P d.

Section Node.
  Variables (off : N) (d : nat) (c cL cR n : N).
  Hypothesis HN : Node off d c cL cR n.

  Local Notation offR := (off + P (S d)).
  Local Notation p := (rroot off c).
  Local Notation pL := (rroot off cL).
  Local Notation pR := (rroot offR cR).

  Lemma Node_left : Geo off d cL n.
  Proof.
    destruct HN as ((Hal & H1 & Hcle & Hend & Hb) & Hc & HcL & HcR). rewrite HcL.
    pose proof (P_S d) as HS. pose proof (P_S (S d)) as HSS. pose proof (P_pos d) as Hp.
    split; [apply (P_mod_weaken off (S d) (S (S d))); [lia|exact Hal]|].
    split; [lia|]. split; [lia|]. split; [left; lia|lia].
  Qed.

  Lemma Node_right : Geo offR d cR n.
  Proof.
    destruct HN as ((Hal & H1 & Hcle & Hend & Hb) & Hc & HcL & HcR).
    pose proof (P_S d) as HS. pose proof (P_S (S d)) as HSS. pose proof (P_pos d) as Hp.
    split; [exact (aligned_right off d Hal)|]. repeat apply conj; lia.
  Qed.

  Lemma node_aligned : off mod P (S (S d)) = 0.
  Proof. apply HN. Qed.

  Lemma node_fits : off + P (S (S d)) <= 2 ^ 63.
  Proof. apply HN. Qed.

  Lemma node_fits64 : off + P (S (S d)) <= 2 ^ 64.
  Proof. pose proof node_fits. lia. Qed.

  Lemma rroot_p : p = off + P (S d) - 1.
  Proof. destruct HN as ((_ & _ & Hcle & _) & Hc & _). apply rroot_S; assumption. Qed.

  Lemma rroot_pL : pL = off + P d - 1.
  Proof. destruct HN as (HG & Hc & HcL & HcR). rewrite HcL. apply rroot_P. Qed.

  Lemma nav_order : pL < p /\ p < offR /\ p < pR /\ pR < n.
  Proof.
    rewrite rroot_p, rroot_pL. pose proof (P_S d) as HS. pose proof (P_pos d) as Hp.
    destruct Node_right as (_ & H1 & _ & Hend & _). pose proof (rroot_range offR cR H1). lia.
  Qed.

  Lemma p_ltb_n : p <? n = true.
  Proof. pose proof nav_order as Hord. apply N.ltb_lt. lia. Qed.

  Lemma pL_ltb_p : pL <? p = true.
  Proof. apply N.ltb_lt, nav_order. Qed.

  Lemma pR_ltb_p : pR <? p = false.
  Proof. pose proof nav_order as Hord. apply N.ltb_ge. lia. Qed.

  Lemma apart_left g : apart g off c -> apart g off cL /\ pL <> g.
  Proof.
    unfold apart. rewrite rroot_p, rroot_pL. pose proof (P_S d) as HS. pose proof (P_pos d) as Hp.
    destruct HN as (HG & Hc & HcL & HcR).
    intros [Hg|[Hg|Hg]].
    - split; [left|]; lia.
    - (* the root lies right of the left half *) split; [right; right|]; lia.
    - split; [right; right|]; lia.
  Qed.

  Lemma apart_right g : apart g off c -> apart g offR cR /\ pR <> g.
  Proof.
    unfold apart. rewrite rroot_p. pose proof (P_S d) as HS. pose proof (P_pos d) as Hp.
    destruct Node_right as (Hal & H1 & Hrest). pose proof (rroot_range offR cR H1) as Hrange.
    destruct HN as (HG & Hc & HcL & HcR). clear Hrest.
    intros [Hg|[Hg|Hg]].
    - split; [left|]; lia.
    - (* the root lies left of the right half *) split; [left|]; lia.
    - split; [right; right|]; lia.
  Qed.

  Lemma nav_left_child : complete_left_child p = Some pL.
  Proof.
    rewrite rroot_p, rroot_pL.
    apply perfect_left_child_spec; [exact node_aligned|exact node_fits64].
  Qed.

  Lemma nav_parent_of_left : complete_parent pL n = Some p.
  Proof.
    pose proof p_ltb_n as Hlt.
    rewrite rroot_p, rroot_pL in *.
    unfold complete_parent. cbn [complete_parent_loop]. unfold bind.
    rewrite (perfect_parent_left off d node_aligned node_fits64), Hlt. reflexivity.
  Qed.

  (** From the root [offR + P e - 1] of a perfect subtree of depth [e <= d] at the left end
      of the right half up to [p].  Its ancestors [offR + P (S e') - 1] for [e <= e' < d] are
      virtual: they lie beyond the array, which it is enough to ask of the lowest one.  The
      loop passes them, one iteration each, and the last iteration finds [p]. *)
  Lemma climb e : (e <= d)%nat -> ((e < d)%nat -> n <= offR + P (S e) - 1) ->
    complete_parent_loop (S (d - e)) (offR + P e - 1) n = Some p.
  Proof.
    pose proof p_ltb_n as Hlt.
    rewrite rroot_p in *. pose proof node_fits as Hb. pose proof node_aligned as Hal.
    pose proof (P_S (S d)) as HSS.
    remember (d - e)%nat as k eqn:Hk. revert e Hk.
    induction k as [|k IH]; intros e Hk He Hge; cbn [complete_parent_loop]; unfold bind.
    - assert (e = d) by lia. subst e.
      rewrite (perfect_parent_right off d Hal node_fits64), Hlt. reflexivity.
    - assert (Hle : P (S (S e)) <= P (S d)) by (apply P_le; lia).
      assert (Hal' : offR mod P (S (S e)) = 0).
      { apply (P_mod_weaken offR (S (S e)) (S d)); [lia|exact (aligned_right off d Hal)]. }
      rewrite (perfect_parent_left offR e Hal') by lia.
      assert (Hn : n <= offR + P (S e) - 1) by (apply Hge; lia).
      assert (Hnlt : offR + P (S e) - 1 <? n = false) by (apply N.ltb_ge, Hn).
      rewrite Hnlt.
      apply (IH (S e)); [lia|lia|].
      intros _. pose proof (P_S (S e)). pose proof (P_pos (S e)). lia.
  Qed.

  Lemma nav_parent_of_right : complete_parent pR n = Some p.
  Proof.
    destruct Node_right as (HalR & Hm1 & Hm2 & HendR & HbR).
    pose proof (Geo_depth _ _ _ _ (proj1 HN)) as Hd.
    pose proof (lg_spec cR Hm1) as [Hhi Hlo].
    pose proof (lg_le cR d Hm1 Hm2) as Hle.
    apply (complete_parent_loop_mono (S (d - lg cR))); [lia|].
    apply climb; [exact Hle|].
    (* a right half of smaller depth is not perfect, so it ends the array *)
    intros Hk. clear HalR HbR Hd Hlo.
    assert (HPe : P (S (lg cR)) <= P d) by (apply P_le; lia).
    pose proof (P_S (lg cR)). lia.
  Qed.

  Lemma nav_right_child : complete_right_child p n = Some pR.
  Proof.
    destruct Node_right as (HalR & Hm1 & Hm2 & HendR & HbR).
    pose proof p_ltb_n as Hlt. rewrite rroot_p in *.
    pose proof (P_S d) as HS. pose proof (P_pos d) as Hpd.
    unfold complete_right_child, bind.
    rewrite (is_branch_root off d node_aligned), Hlt,
      (perfect_right_child_spec off d node_aligned node_fits64).
    cbn [assert].
    destruct (N.ltb_spec (offR + P d - 1) n) as [Hrn|Hrn].
    - (* the right subtree has full depth *)
      unfold rroot. rewrite (lg_unique cR d) by lia. reflexivity.
    - (* it has not: it ends the array, and its root is found through [complete_root] *)
      assert (Hn : n = offR + 2 * cR - 1) by lia. clear HendR Hrn HalR.
      pose proof (rroot_range offR cR Hm1) as Hrange.
      pose proof MAXU_ones as HM.
      assert (Hc1 : checked_add MAXU (off + P (S d) - 1) 1 = Some offR)
        by (apply checked_add_Some; lia).
      assert (Hc2 : checked_sub n offR = Some (2 * cR - 1))
        by (apply checked_sub_Some; lia).
      rewrite Hc1, Hc2, complete_root_spec by lia.
      apply checked_add_Some. rewrite <- rroot_add. split; [reflexivity|lia].
  Qed.

  Lemma nav_checked_parent_of_left : checked_complete_parent pL n = Some (Some p).
  Proof. apply checked_of_complete_parent, nav_parent_of_left. Qed.

  Lemma nav_checked_parent_of_right : checked_complete_parent pR n = Some (Some p).
  Proof. apply checked_of_complete_parent, nav_parent_of_right. Qed.

  Lemma nav_sibling_of_left : complete_parent_and_sibling pL n = Some (p, pR).
  Proof.
    pose proof nav_order as Hord.
    assert (HLn : pL <? n = true) by (apply N.ltb_lt; lia).
    unfold complete_parent_and_sibling, bind.
    rewrite HLn. cbn [assert]. rewrite nav_parent_of_left, pL_ltb_p, nav_right_child. reflexivity.
  Qed.

  Lemma nav_sibling_of_right : complete_parent_and_sibling pR n = Some (p, pL).
  Proof.
    pose proof nav_order as Hord.
    assert (HRn : pR <? n = true) by (apply N.ltb_lt; lia).
    unfold complete_parent_and_sibling, bind.
    rewrite HRn. cbn [assert]. rewrite nav_parent_of_right, pR_ltb_p, nav_left_child. reflexivity.
  Qed.
End Node.
