(** C08 — [root] is the RFC 6962 Merkle Tree Hash and [construct_proof] the RFC 6962 audit
    path for every leaf sequence of length <= [BOUND]: the small-tree instances of the theorems
    of MerkleRootFull, whose bound is the whole address space. *)
From Astria Require Import Merkle.MerkleModel Merkle.MerkleSpec Merkle.MerkleRootFull.

Definition BOUND : nat := 128.

Lemma BOUND_fits : (BOUND <= N.to_nat (2 ^ 62))%nat.
Proof. unfold BOUND. lia. Qed.

Section Weaken.
  Variable D : Type.
  Variable nodeH : D -> D -> D.
  Variables emptyH zeroD : D.

  Lemma stmt_root_is_mth_le b b' : (b <= b')%nat ->
    stmt_root_is_mth D nodeH emptyH zeroD b' -> stmt_root_is_mth D nodeH emptyH zeroD b.
  Proof. intros Hb H ls Hlen. apply H. lia. Qed.

  Lemma stmt_proof_complete_le b b' : (b <= b')%nat ->
    stmt_proof_complete D nodeH emptyH zeroD b' -> stmt_proof_complete D nodeH emptyH zeroD b.
  Proof. intros Hb H ls t i d Hlen. apply H. lia. Qed.

  Theorem root_is_mth_bounded : stmt_root_is_mth D nodeH emptyH zeroD BOUND.
  Proof. exact (stmt_root_is_mth_le _ _ BOUND_fits (root_is_mth D nodeH emptyH zeroD)). Qed.

  Theorem proof_complete_bounded : stmt_proof_complete D nodeH emptyH zeroD BOUND.
  Proof. exact (stmt_proof_complete_le _ _ BOUND_fits (proof_complete D nodeH emptyH zeroD)). Qed.
End Weaken.

Print Assumptions root_is_mth_bounded.
Print Assumptions proof_complete_bounded.
