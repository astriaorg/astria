(** C08 — the bit tricks of astria-merkle's flat in-order tree ([last_set_bit],
    [last_zero_bit], masking with [!x]) read as arithmetic on [off + 2^j - 1] with
    [2^(j+1) | off], the index with [j] trailing one bits.  The tree identities built from
    them are in MerkleNav. *)
From Astria Require Import Merkle.MerkleModel.

Lemma pow2_pos j : 0 < 2 ^ j.
Proof. apply N.neq_0_lt_0, N.pow_nonzero. discriminate. Qed.

Lemma pow2_S j : 2 ^ (j + 1) = 2 * 2 ^ j.
Proof. rewrite N.add_1_r. apply N.pow_succ_r'. Qed.

Lemma pow2_le j k : j <= k -> 2 ^ j <= 2 ^ k.
Proof. intros H. apply N.pow_le_mono_r; [discriminate|exact H]. Qed.

Lemma pow2_lt j k : j < k -> 2 ^ j < 2 ^ k.
Proof. intros H. apply N.pow_lt_mono_r; [reflexivity|exact H]. Qed.

Lemma tb_ones j b : N.testbit (2 ^ j - 1) b = (b <? j).
Proof.
  rewrite N.sub_1_r, <- N.ones_equiv.
  destruct (N.ltb_spec b j) as [H|H].
  - apply N.ones_spec_low; exact H.
  - apply N.ones_spec_high; exact H.
Qed.

Lemma MAXU_ones : MAXU = 2 ^ 64 - 1.
Proof. reflexivity. Qed.

Lemma tb_low off m b : off mod 2 ^ m = 0 -> b < m -> N.testbit off b = false.
Proof.
  intros Hm Hb. rewrite <- (N.mod_pow2_bits_low off m b Hb), Hm. apply N.bits_0.
Qed.

Lemma tb_high x m b : x < 2 ^ m -> m <= b -> N.testbit x b = false.
Proof.
  intros Hx Hb. rewrite <- (N.mod_small x (2 ^ m) Hx).
  apply N.mod_pow2_bits_high; exact Hb.
Qed.

Lemma tb_high_inv x m : (forall b, m <= b -> N.testbit x b = false) -> x < 2 ^ m.
Proof.
  intros H. rewrite <- (N.mod_small_iff x (2 ^ m)) by (apply N.pow_nonzero; discriminate).
  apply N.bits_inj. intros b. destruct (N.lt_ge_cases b m) as [Hb|Hb].
  - apply N.mod_pow2_bits_low. exact Hb.
  - rewrite (N.mod_pow2_bits_high x m b Hb). symmetry. apply H. exact Hb.
Qed.

Lemma tb_split off x m b : off mod 2 ^ m = 0 -> x < 2 ^ m ->
  N.testbit (off + x) b = if b <? m then N.testbit x b else N.testbit off b.
Proof.
  intros Hm Hx.
  assert (Hl : N.land off x = 0).
  { apply N.bits_inj. intros k. rewrite N.land_spec, N.bits_0.
    destruct (N.ltb_spec k m) as [H|H].
    - rewrite (tb_low off m k Hm H). reflexivity.
    - rewrite (tb_high x m k Hx H). apply andb_false_r. }
  rewrite (N.add_nocarry_lxor _ _ Hl), (N.lxor_lor _ _ Hl), N.lor_spec.
  destruct (N.ltb_spec b m) as [H|H].
  - rewrite (tb_low off m b Hm H). reflexivity.
  - rewrite (tb_high x m b Hx H). apply orb_false_r.
Qed.

(** the bits of [off + (2^k - 1)] below the alignment of [off]: [k] ones *)
Lemma tb_off_ones off k m b : off mod 2 ^ m = 0 -> k <= m -> b < m ->
  N.testbit (off + (2 ^ k - 1)) b = (b <? k).
Proof.
  intros Hoff Hk Hb. pose proof (pow2_pos k). pose proof (pow2_le k m Hk).
  rewrite (tb_split off (2 ^ k - 1) m b Hoff) by lia.
  apply N.ltb_lt in Hb. rewrite Hb. apply tb_ones.
Qed.

Lemma last_set_bit_spec off j m :
  j < m -> off mod 2 ^ m = 0 ->
  last_set_bit (off + 2 ^ j) = Some (2 ^ j).
Proof.
  intros Hjm Hoff. unfold last_set_bit, bind.
  pose proof (pow2_pos j) as Hp. pose proof (pow2_lt j m Hjm) as Hlt.
  assert (Hc : checked_sub (off + 2 ^ j) 1 = Some (off + (2 ^ j - 1))).
  { apply checked_sub_Some. lia. }
  rewrite Hc.
  assert (Hland : N.land (off + (2 ^ j - 1)) (off + 2 ^ j) = off).
  { apply N.bits_inj. intros b. rewrite N.land_spec.
    rewrite (tb_split off (2 ^ j - 1) m b Hoff), (tb_split off (2 ^ j) m b Hoff) by lia.
    destruct (N.ltb_spec b m) as [Hb|Hb]; [|apply andb_diag].
    (* below [m] the ones of [2^j - 1] and the single bit of [2^j] do not meet *)
    rewrite tb_ones, N.pow2_bits_eqb, (tb_low off m b Hoff Hb).
    destruct (N.eqb_spec j b) as [<-|_]; [rewrite N.ltb_irrefl; reflexivity|apply andb_false_r]. }
  rewrite Hland. apply checked_sub_Some. lia.
Qed.

(** every positive number is [off + 2^m] with [m] its lowest set bit *)
Lemma lowest_bit_decomp x : 0 < x -> exists m off, x = off + 2 ^ m /\ off mod 2 ^ (m + 1) = 0.
Proof.
  destruct x as [|p]; [intros H; exfalso; lia|intros _].
  induction p as [p _|p (m & off & Hx & Hoff)|].
  - exists 0, (2 * N.pos p). split; [lia|]. rewrite N.mul_comm. apply N.mod_mul. discriminate.
  - exists (m + 1), (2 * off). split; [rewrite pow2_S; lia|].
    rewrite (pow2_S (m + 1)), N.mul_mod_distr_l, Hoff by (try apply N.pow_nonzero; discriminate).
    reflexivity.
  - exists 0, 0. split; reflexivity.
Qed.

(** [last_set_bit (i+1)] is 2^m where m is the number of trailing one bits of i *)
Lemma last_set_bit_succ i : i < MAXU ->
  exists m, last_set_bit (i + 1) = Some (2 ^ m) /\ m < 64 /\
            N.testbit i m = false /\
            forall j, j < m -> N.testbit i j = true.
Proof.
  intros Hi. destruct (lowest_bit_decomp (i + 1)) as (m & off & Hx & Hoff); [lia|].
  pose proof (pow2_pos m) as Hp. pose proof (pow2_S m) as HS. pose proof MAXU_ones as HM.
  exists m. rewrite Hx. split; [apply (last_set_bit_spec off m (m + 1)); [lia|exact Hoff]|]. split.
  - apply (N.pow_lt_mono_r_iff 2); lia.
  - replace i with (off + (2 ^ m - 1)) by lia.
    split; [|intros j Hj].
    + rewrite (tb_off_ones off m (m + 1)) by (assumption || lia). apply N.ltb_irrefl.
    + rewrite (tb_off_ones off m (m + 1)) by (assumption || lia). apply N.ltb_lt, Hj.
Qed.

Lemma last_zero_bit_spec off j m :
  j < m -> off mod 2 ^ m = 0 -> off + 2 ^ j <= MAXU ->
  last_zero_bit (off + 2 ^ j - 1) = Some (2 ^ j).
Proof.
  intros Hjm Hoff Hle. unfold last_zero_bit, bind.
  pose proof (pow2_pos j) as Hp.
  assert (Hc : checked_add MAXU (off + 2 ^ j - 1) 1 = Some (off + 2 ^ j)).
  { apply checked_add_Some. lia. }
  rewrite Hc. apply (last_set_bit_spec off j m Hjm Hoff).
Qed.

Lemma shl64_1 x : 2 * x < 2 ^ 64 -> shl64 x 1 = 2 * x.
Proof.
  intros Hx. unfold shl64. rewrite N.shiftl_mul_pow2, N.pow_1_r, N.mul_comm.
  apply N.mod_small, Hx.
Qed.

Lemma tb_shl64_pow_low m b : b <= m -> N.testbit (shl64 (2 ^ m) 1) b = false.
Proof.
  intros Hb. unfold shl64.
  destruct (N.lt_ge_cases b 64) as [Hlt|Hge].
  - rewrite N.mod_pow2_bits_low by exact Hlt.
    rewrite N.shiftl_mul_pow2, <- N.pow_add_r.
    apply N.pow2_bits_false. lia.
  - apply N.mod_pow2_bits_high. exact Hge.
Qed.

Lemma shiftr_1_double x : N.shiftr (2 * x) 1 = x.
Proof. rewrite N.shiftr_div_pow2, N.pow_1_r, N.mul_comm. apply N.div_mul. discriminate. Qed.

Lemma tb_lnot64 x b : N.testbit (lnot64 x) b = xorb (N.testbit x b) (b <? 64).
Proof. unfold lnot64. rewrite N.lxor_spec, MAXU_ones, tb_ones. reflexivity. Qed.

Lemma is_branch_bit0 x : is_branch x = N.testbit x 0.
Proof.
  unfold is_branch. change 1 with (N.ones 1) at 1. rewrite N.land_ones.
  symmetry. apply N.bit0_eqb.
Qed.

(** setting a clear bit adds its weight *)
Lemma lor_pow2 x k : N.testbit x k = false -> N.lor x (2 ^ k) = x + 2 ^ k.
Proof.
  intros Hb.
  assert (Hl : N.land x (2 ^ k) = 0).
  { apply N.bits_inj. intros b. rewrite N.land_spec, N.pow2_bits_eqb, N.bits_0.
    destruct (N.eqb_spec k b) as [<-|_]; [rewrite Hb; reflexivity|apply andb_false_r]. }
  rewrite <- (N.lxor_lor _ _ Hl). symmetry. apply N.add_nocarry_lxor, Hl.
Qed.

(** masking a 64-bit word with [!2^k] clears bit [k]: nothing happens if it was clear,
    its weight is subtracted if it was set *)
Lemma mask_pow2 x k : x < 2 ^ 64 -> N.land x (lnot64 (2 ^ k)) = N.ldiff x (2 ^ k).
Proof.
  intros Hx. apply N.bits_inj. intros b. rewrite N.land_spec, N.ldiff_spec, tb_lnot64.
  destruct (N.ltb_spec b 64) as [Hb|Hb]; [rewrite xorb_true_r; reflexivity|].
  rewrite (tb_high x 64 b Hx Hb). reflexivity.
Qed.

Lemma mask_pow2_clear x k :
  x < 2 ^ 64 -> N.testbit x k = false -> N.land x (lnot64 (2 ^ k)) = x.
Proof.
  intros Hx Hb. rewrite (mask_pow2 x k Hx). apply N.bits_inj. intros b.
  rewrite N.ldiff_spec, N.pow2_bits_eqb.
  destruct (N.eqb_spec k b) as [<-|_]; [rewrite Hb; reflexivity|apply andb_true_r].
Qed.

Lemma mask_pow2_set x k :
  x < 2 ^ 64 -> N.testbit x k = true -> N.land x (lnot64 (2 ^ k)) = x - 2 ^ k.
Proof.
  intros Hx Hb. rewrite (mask_pow2 x k Hx). symmetry. apply N.sub_nocarry_ldiff.
  apply N.bits_inj. intros b. rewrite N.ldiff_spec, N.pow2_bits_eqb, N.bits_0.
  destruct (N.eqb_spec k b) as [<-|_]; [rewrite Hb|]; reflexivity.
Qed.

Section AlignedOffset.
  Variables off j : N.
  Hypothesis Hoff : off mod 2 ^ (j + 2) = 0.

  Lemma tb_off_lo b : b < j + 2 -> N.testbit off b = false.
  Proof. apply tb_low. exact Hoff. Qed.
End AlignedOffset.
