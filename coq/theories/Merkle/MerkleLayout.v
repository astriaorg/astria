(** C08 — the flat in-order array [layout_d] of a complete tree, defined by the RFC 6962
    split like [mth_d] and [rfc_path_d] of the model: the unfolding lemmas of the three
    ([*_skip], [*_node], [rfc_path_left/right]) and the induction principle [rfc_split_ind]
    they share; the list side of [Geo] and [Node] of MerkleNav ([Node_split]: a subtree with
    more than [2^d] leaves has a root node and two halves); length of the array, position of
    the root, sub-arrays [Sub] of a global array. *)
From Astria Require Import Merkle.MerkleModel Merkle.MerkleBits Merkle.MerkleNav.

Lemma P_pow d : N.of_nat (Nat.pow 2 d) = P d.
Proof. unfold P. rewrite Nat2N.inj_pow. reflexivity. Qed.

Lemma pow_pos d : (0 < Nat.pow 2 d)%nat.
Proof. pose proof (P_pow d). pose proof (P_pos d). lia. Qed.

Lemma nth_error_firstn_lt {A} k : forall (l : list A) m, (m < k)%nat ->
  nth_error (firstn k l) m = nth_error l m.
Proof.
  induction k as [|k IH]; intros l m H; [lia|].
  destruct l as [|x l]; [reflexivity|].
  destruct m as [|m]; [reflexivity|].
  cbn [firstn nth_error]. apply IH. lia.
Qed.

Lemma nth_error_skipn_add {A} k : forall (l : list A) m,
  nth_error (skipn k l) m = nth_error l (k + m).
Proof.
  induction k as [|k IH]; intros l m; [reflexivity|].
  destruct l as [|x l]; [destruct m; reflexivity|].
  cbn [skipn plus nth_error]. apply IH.
Qed.

Section Layout.
  Variable D : Type.
  Variable nodeH : D -> D -> D.
  Variable emptyH : D.

  Local Notation tlen := (tlen D).
  Local Notation get_node := (get_node D).
  Local Notation mth_d := (mth_d D nodeH emptyH).
  Local Notation rfc_path_d := (rfc_path_d D nodeH emptyH).

  Lemma tlen_app (a b : list D) : tlen (a ++ b) = tlen a + tlen b.
  Proof. unfold MerkleModel.tlen. rewrite app_length. lia. Qed.

  Lemma tlen_cons (x : D) (a : list D) : tlen (x :: a) = 1 + tlen a.
  Proof. unfold MerkleModel.tlen. cbn [length]. lia. Qed.

  Lemma tlen_nil : tlen [] = 0.
  Proof. reflexivity. Qed.

  Lemma get_node_app_r (a b : list D) i : get_node (a ++ b) (tlen a + i) = get_node b i.
  Proof.
    unfold MerkleModel.get_node. rewrite tlen_app.
    destruct (N.ltb_spec i (tlen b)) as [H|H].
    - assert (H' : tlen a + i <? tlen a + tlen b = true) by (apply N.ltb_lt; lia).
      rewrite H'. unfold MerkleModel.tlen.
      replace (N.to_nat (N.of_nat (length a) + i)) with (length a + N.to_nat i)%nat by lia.
      rewrite nth_error_app2 by lia. f_equal. lia.
    - assert (H' : tlen a + i <? tlen a + tlen b = false) by (apply N.ltb_ge; lia).
      rewrite H'. reflexivity.
  Qed.

  Lemma get_node_head (x : D) (a : list D) : get_node (x :: a) 0 = Some x.
  Proof. reflexivity. Qed.

  Lemma set_nth_app (a b : list D) g v :
    set_nth D (a ++ g :: b) (length a) v = a ++ v :: b.
  Proof.
    induction a as [|y a IH]; [reflexivity|].
    cbn [app length set_nth]. rewrite IH. reflexivity.
  Qed.

  Lemma set_node_app (a b : list D) g v :
    set_node D (a ++ g :: b) (tlen a) v = Some (a ++ v :: b).
  Proof.
    unfold set_node. rewrite tlen_app, tlen_cons.
    assert (H : tlen a <? tlen a + (1 + tlen b) = true) by (apply N.ltb_lt; lia).
    rewrite H. unfold MerkleModel.tlen. rewrite Nat2N.id, set_nth_app. reflexivity.
  Qed.

  Fixpoint layout_d (d : nat) (l : list D) : list D :=
    match d with
    | O => l
    | S d' =>
        let k := Nat.pow 2 d' in
        if Nat.leb (length l) k then layout_d d' l
        else layout_d d' (firstn k l)
             ++ nodeH (mth_d d' (firstn k l)) (mth_d d' (skipn k l))
             :: layout_d d' (skipn k l)
    end.

  (** The array of a whole leaf sequence.  Its depth is [Nat.log2_up (length l)], as in [mth]
      and [rfc_path]; the navigation lemmas speak of [lg (tlen l)] instead, which is the same
      number (both are determined by [2^(d-1) < |l| <= 2^d], see [lg_unique] and
      [P_log2_up]), but no lemma needs the equation: by [layout_indep] any depth that is
      large enough gives the same array. *)
  Definition lay (l : list D) : list D := layout_d (Nat.log2_up (length l)) l.

  Lemma layout_skip d l : (length l <= Nat.pow 2 d)%nat -> layout_d (S d) l = layout_d d l.
  Proof.
    intros H. cbn [layout_d]. apply Nat.leb_le in H. rewrite H. reflexivity.
  Qed.

  Lemma layout_node d l : (Nat.pow 2 d < length l)%nat ->
    layout_d (S d) l =
    layout_d d (firstn (Nat.pow 2 d) l)
    ++ nodeH (mth_d d (firstn (Nat.pow 2 d) l)) (mth_d d (skipn (Nat.pow 2 d) l))
    :: layout_d d (skipn (Nat.pow 2 d) l).
  Proof.
    intros H. cbn [layout_d]. apply Nat.leb_gt in H. rewrite H. reflexivity.
  Qed.

  Lemma mth_skip d l : (length l <= Nat.pow 2 d)%nat -> mth_d (S d) l = mth_d d l.
  Proof.
    intros H. cbn [MerkleModel.mth_d]. apply Nat.leb_le in H. rewrite H. reflexivity.
  Qed.

  Lemma mth_node d l : (Nat.pow 2 d < length l)%nat ->
    mth_d (S d) l =
    nodeH (mth_d d (firstn (Nat.pow 2 d) l)) (mth_d d (skipn (Nat.pow 2 d) l)).
  Proof.
    intros H. cbn [MerkleModel.mth_d]. apply Nat.leb_gt in H. rewrite H. reflexivity.
  Qed.

  Lemma rfc_path_skip d m l : (length l <= Nat.pow 2 d)%nat ->
    rfc_path_d (S d) m l = rfc_path_d d m l.
  Proof.
    intros H. cbn [MerkleModel.rfc_path_d]. apply Nat.leb_le in H. rewrite H. reflexivity.
  Qed.

  Lemma rfc_path_left d m l : (Nat.pow 2 d < length l)%nat -> (m < Nat.pow 2 d)%nat ->
    rfc_path_d (S d) m l =
    rfc_path_d d m (firstn (Nat.pow 2 d) l) ++ [mth_d d (skipn (Nat.pow 2 d) l)].
  Proof.
    intros H Hm. cbn [MerkleModel.rfc_path_d].
    apply Nat.leb_gt in H. apply Nat.ltb_lt in Hm. rewrite H, Hm. reflexivity.
  Qed.

  Lemma rfc_path_right d m l : (Nat.pow 2 d < length l)%nat -> (Nat.pow 2 d <= m)%nat ->
    rfc_path_d (S d) m l =
    rfc_path_d d (m - Nat.pow 2 d) (skipn (Nat.pow 2 d) l) ++ [mth_d d (firstn (Nat.pow 2 d) l)].
  Proof.
    intros H Hm. cbn [MerkleModel.rfc_path_d].
    apply Nat.leb_gt in H. apply Nat.ltb_ge in Hm. rewrite H, Hm. reflexivity.
  Qed.

  (** induction along the recursion shared by [mth_d], [rfc_path_d] and [layout_d];
      plain [apply] instantiates [Q] with a constant predicate: use
      [revert d l. refine (rfc_split_ind _ _ _ _); cbv beta.] *)
  Lemma rfc_split_ind (Q : nat -> list D -> Prop) :
    (forall l, Q 0%nat l) ->
    (forall d l, (length l <= Nat.pow 2 d)%nat -> Q d l -> Q (S d) l) ->
    (forall d l, (Nat.pow 2 d < length l)%nat ->
       Q d (firstn (Nat.pow 2 d) l) -> Q d (skipn (Nat.pow 2 d) l) -> Q (S d) l) ->
    forall d l, Q d l.
  Proof.
    intros H0 Hskip Hnode. induction d as [|d IH]; intros l; [apply H0|].
    destruct (Nat.le_gt_cases (length l) (Nat.pow 2 d)); [apply Hskip|apply Hnode]; auto.
  Qed.

  Lemma tlen_pow_le d (l : list D) : (length l <= Nat.pow 2 d)%nat <-> tlen l <= P d.
  Proof. unfold MerkleModel.tlen. rewrite <- P_pow. lia. Qed.

  Lemma tlen_pow_lt d (l : list D) : (Nat.pow 2 d < length l)%nat <-> P d < tlen l.
  Proof. unfold MerkleModel.tlen. rewrite <- P_pow. lia. Qed.

  Lemma tlen_firstn d (l : list D) :
    (Nat.pow 2 d < length l)%nat -> tlen (firstn (Nat.pow 2 d) l) = P d.
  Proof. intros H. unfold MerkleModel.tlen. rewrite firstn_length, <- P_pow. lia. Qed.

  Lemma tlen_skipn d (l : list D) : tlen (skipn (Nat.pow 2 d) l) = tlen l - P d.
  Proof. unfold MerkleModel.tlen. rewrite skipn_length, <- P_pow. lia. Qed.

  (** leaf [m] of the whole is leaf [m - 2^d] of the right part, which starts at [off + P (S d)] *)
  Lemma leaf_index_right off d m : (Nat.pow 2 d <= m)%nat ->
    off + 2 * N.of_nat m = off + P (S d) + 2 * N.of_nat (m - Nat.pow 2 d).
  Proof. intros H. pose proof (P_pow d). pose proof (P_S d). lia. Qed.

  Lemma rroot_single off (x : D) : rroot off (tlen [x]) = off.
  Proof. change (tlen [x]) with (P 0). rewrite rroot_P, P_0. lia. Qed.

  Lemma Geo_length off d l n : Geo off d (tlen l) n -> (1 <= length l <= Nat.pow 2 d)%nat.
  Proof. intros (_ & H1 & Hc & _). apply tlen_pow_le in Hc. unfold MerkleModel.tlen in H1. lia. Qed.

  Lemma Geo_leaf off l n : Geo off 0 (tlen l) n -> exists x, l = [x].
  Proof.
    intros HG. apply Geo_length in HG.
    destruct l as [|x [|y l]]; cbn [length Nat.pow] in HG; try lia. exists x. reflexivity.
  Qed.

  Lemma Geo_skip_length off d l n :
    Geo off (S d) (tlen l) n -> (length l <= Nat.pow 2 d)%nat -> Geo off d (tlen l) n.
  Proof.
    intros (Hal & H1 & Hc & Hend & Hb) Hle. apply tlen_pow_le in Hle.
    pose proof (P_S d) as HS. pose proof (P_S (S d)) as HSS.
    split; [apply (P_mod_weaken off (S d) (S (S d))); [lia|exact Hal]|]. repeat apply conj; lia.
  Qed.

  Lemma Node_split off d l n :
    Geo off (S d) (tlen l) n -> (Nat.pow 2 d < length l)%nat ->
    Node off d (tlen l) (tlen (firstn (Nat.pow 2 d) l)) (tlen (skipn (Nat.pow 2 d) l)) n.
  Proof.
    intros HG Hgt. split; [exact HG|]. split; [apply tlen_pow_lt, Hgt|].
    split; [apply tlen_firstn, Hgt|apply tlen_skipn].
  Qed.

  Lemma layout_len d l : (length l <= Nat.pow 2 d)%nat ->
    tlen (layout_d d l) = 2 * tlen l - 1.
  Proof.
    revert d l. refine (rfc_split_ind _ _ _ _); cbv beta.
    - intros l Hd. cbn [layout_d Nat.pow] in *. unfold MerkleModel.tlen. lia.
    - intros d l Hle IH _. rewrite layout_skip by exact Hle. apply IH; assumption.
    - intros d l Hgt IHL IHR Hd. rewrite layout_node by exact Hgt.
      pose proof (pow_pos d) as Hk. cbn [Nat.pow] in Hd.
      rewrite tlen_app, tlen_cons, IHL, IHR by (rewrite ?firstn_length, ?skipn_length; lia).
      rewrite (tlen_firstn d l Hgt), tlen_skipn.
      apply tlen_pow_lt in Hgt. pose proof (P_pos d). lia.
  Qed.

  (** the left half of a node fills the array exactly up to the node's own position *)
  Lemma layout_left_len d l : (Nat.pow 2 d < length l)%nat ->
    tlen (layout_d d (firstn (Nat.pow 2 d) l)) = P (S d) - 1.
  Proof.
    intros Hgt. pose proof (pow_pos d).
    rewrite layout_len, (tlen_firstn d l Hgt), P_S by (rewrite firstn_length; lia). reflexivity.
  Qed.

  Lemma layout_plus d k : forall l, (length l <= Nat.pow 2 d)%nat ->
    layout_d (k + d) l = layout_d d l.
  Proof.
    induction k as [|k IH]; intros l Hl; [reflexivity|].
    cbn [plus]. rewrite layout_skip; [apply IH; exact Hl|].
    assert (P d <= P (k + d)) by (apply P_le; lia).
    pose proof (P_pow d). pose proof (P_pow (k + d)). lia.
  Qed.

  Lemma layout_indep d d' l :
    (length l <= Nat.pow 2 d)%nat -> (length l <= Nat.pow 2 d')%nat ->
    layout_d d l = layout_d d' l.
  Proof.
    intros H H'. destruct (Nat.le_ge_cases d d') as [Hle|Hge].
    - replace d' with ((d' - d) + d)%nat by lia. symmetry. apply layout_plus. exact H.
    - replace d with ((d - d') + d')%nat by lia. apply layout_plus. exact H'.
  Qed.

  (** the array of [l] sits in the global array [t] at offset [off] *)
  Definition Sub (t : list D) (off : N) (d : nat) (l : list D) : Prop :=
    exists pre post, t = pre ++ layout_d d l ++ post /\ tlen pre = off.

  Lemma Sub_whole d l : Sub (layout_d d l) 0 d l.
  Proof. exists [], []. split; [|reflexivity]. rewrite app_nil_r. reflexivity. Qed.

  Lemma Sub_skip t off d l :
    Sub t off (S d) l -> (length l <= Nat.pow 2 d)%nat -> Sub t off d l.
  Proof.
    intros (pre & post & Ht & Hpre) Hle. exists pre, post.
    rewrite layout_skip in Ht by exact Hle. split; assumption.
  Qed.

  Lemma Sub_left t off d l :
    Sub t off (S d) l -> (Nat.pow 2 d < length l)%nat ->
    Sub t off d (firstn (Nat.pow 2 d) l).
  Proof.
    intros (pre & post & Ht & Hpre) Hgt.
    rewrite layout_node in Ht by exact Hgt.
    eexists pre, _. split; [|exact Hpre].
    rewrite Ht. rewrite <- !app_assoc. reflexivity.
  Qed.

  Lemma Sub_right t off d l :
    Sub t off (S d) l -> (Nat.pow 2 d < length l)%nat ->
    Sub t (off + P (S d)) d (skipn (Nat.pow 2 d) l).
  Proof.
    intros (pre & post & Ht & Hpre) Hgt.
    rewrite layout_node in Ht by exact Hgt.
    exists (pre ++ layout_d d (firstn (Nat.pow 2 d) l)
            ++ [nodeH (mth_d d (firstn (Nat.pow 2 d) l)) (mth_d d (skipn (Nat.pow 2 d) l))]),
      post.
    split.
    - rewrite Ht. rewrite <- !app_assoc. reflexivity.
    - rewrite !tlen_app, tlen_cons, tlen_nil, (layout_left_len d l Hgt).
      pose proof (P_pos (S d)). lia.
  Qed.

  Lemma Sub_root t off d l :
    Sub t off d l -> (1 <= length l <= Nat.pow 2 d)%nat ->
    get_node t (rroot off (tlen l)) = Some (mth_d d l).
  Proof.
    revert off. revert d l. refine (rfc_split_ind _ _ _ _); cbv beta.
    - intros l off (pre & post & -> & <-) (H1 & Hd). cbn [Nat.pow] in Hd.
      destruct l as [|x [|y l]]; cbn [length] in *; try lia.
      rewrite rroot_single, <- (N.add_0_r (tlen pre)), get_node_app_r. reflexivity.
    - intros d l Hle IH off HS (H1 & _). rewrite (mth_skip d l Hle).
      apply IH; [apply Sub_skip; assumption|split; assumption].
    - (* the root is the node between the two halves *)
      intros d l Hgt _ _ off (pre & post & -> & <-) (_ & Hd).
      rewrite layout_node, mth_node by exact Hgt.
      rewrite (rroot_S _ d (tlen l)) by (apply tlen_pow_lt, Hgt || apply tlen_pow_le, Hd).
      pose proof (P_pos (S d)) as Hp.
      replace (tlen pre + P (S d) - 1)
        with (tlen (pre ++ layout_d d (firstn (Nat.pow 2 d) l)) + 0)
        by (rewrite tlen_app, (layout_left_len d l Hgt); lia).
      rewrite <- app_assoc, (app_assoc pre), get_node_app_r. reflexivity.
  Qed.
End Layout.
