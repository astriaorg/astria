(** C08 -- totality of Merkle audit-proof verification: for every decodable
    (path, leaf index, tree size) triple of machine integers, [verify] returns a boolean
    and never panics.  The core is a bit-level argument about [checked_complete_parent]:
    every iteration of its loop strictly increases the number of trailing one bits of the
    index, which is bounded by 64. *)
From Astria Require Import Merkle.MerkleSpec Merkle.MerkleBits.

(** the [k] lowest bits of [i] are set *)
Definition trailing_ones (k : nat) (i : N) : Prop :=
  forall j, j < N.of_nat k -> N.testbit i j = true.

(** [p] is what one iteration of [checked_complete_parent_loop] computes from [i] when
    [last_set_bit (i + 1)] is [2^m], that is when [i] has exactly [m] trailing ones *)
Lemma parent_step i m :
  i <= MAXU -> m < 64 -> N.testbit i m = false -> (forall j, j < m -> N.testbit i j = true) ->
  let p := N.land (N.lor (2 ^ m) i) (lnot64 (shl64 (2 ^ m) 1)) in
  p <= MAXU /\ forall k, trailing_ones k i -> trailing_ones (S k) p.
Proof.
  intros Hi Hm Hbit Hlow p. pose proof MAXU_ones as HM. split.
  - assert (Hp : p < 2 ^ 64); [|lia].
    apply tb_high_inv. intros j Hj. unfold p.
    rewrite N.land_spec, N.lor_spec, (tb_high i 64 j), N.pow2_bits_false by lia. reflexivity.
  - intros k Hk j Hj.
    assert (Hkm : N.of_nat k <= m).
    { apply N.le_ngt. intros Hc. rewrite (Hk m Hc) in Hbit. discriminate. }
    unfold p. rewrite N.land_spec, N.lor_spec, tb_lnot64, tb_shl64_pow_low by lia.
    rewrite (proj2 (N.ltb_lt j 64)) by lia.
    destruct (N.eq_dec j m) as [->|Hne].
    + rewrite N.pow2_bits_true. reflexivity.
    + rewrite Hlow by lia. rewrite orb_true_r. reflexivity.
Qed.

(** A 64-bit index has at most 64 trailing ones.  Each iteration adds at least one, and with
    64 of them [i + 1] overflows and the loop returns [Some None]: 65 iterations always
    suffice, one less than the 66 the model grants. *)
Lemma ccp_loop_total n : forall (f k : nat) i,
  i <= MAXU -> trailing_ones k i -> (65 <= f + k)%nat ->
  exists r, checked_complete_parent_loop f i n = Some r /\
            forall p, r = Some p -> p <= MAXU.
Proof.
  induction f as [|f IH]; intros k i Hi Hk Hfk.
  - exfalso.
    assert (Hb : N.testbit i 64 = true) by (apply Hk; lia).
    rewrite (tb_high i 64 64) in Hb; [discriminate| |lia].
    pose proof MAXU_ones. lia.
  - cbn [checked_complete_parent_loop].
    destruct (checked_add MAXU i 1) as [i1|] eqn:Hadd.
    + apply checked_add_Some in Hadd. destruct Hadd as [-> Hle].
      destruct (last_set_bit_succ i) as [m [Hz [Hm [Hbit Hlow]]]]; [lia|].
      rewrite Hz.
      destruct (parent_step i m Hi Hm Hbit Hlow) as [Hp Hones].
      cbv zeta.
      destruct (N.land (N.lor (2 ^ m) i) (lnot64 (shl64 (2 ^ m) 1)) <? n).
      * eexists. split; [reflexivity|]. intros p Hpe. injection Hpe as <-. exact Hp.
      * apply (IH (S k)); [exact Hp|apply Hones; exact Hk|lia].
    + exists None. split; [reflexivity|]. intros p Hpe. discriminate Hpe.
Qed.

Lemma checked_complete_parent_total i n : i <= MAXU ->
  exists r, checked_complete_parent i n = Some r /\ forall p, r = Some p -> p <= MAXU.
Proof.
  intros Hi. unfold checked_complete_parent.
  apply (ccp_loop_total n 66 0 i Hi); [|lia]. intros j Hj. exfalso. lia.
Qed.

Lemma checked_complete_parent_not_None i n : i <= MAXU ->
  checked_complete_parent_loop 66 i n <> None.
Proof.
  intros Hi. destruct (checked_complete_parent_total i n Hi) as [r [Hr _]].
  unfold checked_complete_parent in Hr. rewrite Hr. discriminate.
Qed.

Section Total.
  Variable D : Type.
  Variable nodeH : D -> D -> D.

  Lemma reconstruct_loop_total n : forall path i acc, i <= MAXU ->
    exists x, reconstruct_loop D nodeH path i n acc = Some x.
  Proof.
    induction path as [|s r IH]; intros i acc Hi.
    - exists acc. reflexivity.
    - cbn [reconstruct_loop].
      destruct (checked_complete_parent_total i n Hi) as [[p|] [Hr Hp]]; rewrite Hr.
      + apply IH. apply Hp. reflexivity.
      + apply IH. exact Hi.
  Qed.

  Lemma leaf_index_in_tree_inv li size : is_leaf_index_in_tree li size = true ->
    leaf_index_to_tree_index li = Some (li * 2) /\ li * 2 <= MAXU.
  Proof.
    unfold is_leaf_index_in_tree, leaf_index_to_tree_index.
    destruct (checked_mul MAXU li 2) as [j|] eqn:E; [|discriminate].
    apply checked_mul_Some in E. destruct E as [-> Hle]. intros _. split; [reflexivity|exact Hle].
  Qed.
End Total.

(** whatever the decoded index and size are, even beyond the machine range *)
Theorem verify_never_panics (D : Type) (nodeH : D -> D -> D) (eqD : D -> D -> bool) :
  forall path extra li size,
    match try_into_proof D path extra li size with
    | DOk p => forall l r, exists b, verify D nodeH eqD p l r = Some b
    | _ => True
    end.
Proof.
  intros path extra li size. unfold try_into_proof.
  destruct (size =? 0); [exact I|].
  destruct (is_leaf_index_in_tree li size) eqn:Hin; cbn [negb]; [|exact I].
  destruct (extra =? 0); cbn [negb]; [|exact I].
  intros l r.
  destruct (leaf_index_in_tree_inv li size Hin) as [Hti Hle].
  unfold verify, reconstruct_root, bind. cbn [leaf_index audit_path tree_size].
  rewrite Hti.
  destruct (reconstruct_loop_total D nodeH size path (li * 2) l Hle) as [x Hx].
  rewrite Hx. eexists. reflexivity.
Qed.

Theorem verify_total : forall (D : Type) (nodeH : D -> D -> D) (eqD : D -> D -> bool),
  stmt_verify_total D nodeH eqD.
Proof. intros D nodeH eqD path extra li size _ _. apply verify_never_panics. Qed.

Print Assumptions verify_total.
Print Assumptions checked_complete_parent_not_None.
