(** C09 — [tally_inv] and [reconstruct_inv] locate entries in a fixed ambient list of which the
    list still to be processed is a part ([incl]), so that a recursive call is covered by the
    induction hypothesis as it stands. *)
From Astria Require Import Base.Lists Quorum.QuorumSpec.

Theorem quorum_exact : stmt_quorum_exact.
Proof.
  unfold stmt_quorum_exact, quorum, saturating_mul. intros c t Hc Ht.
  rewrite N.ltb_lt. unfold U128_MAX, U64_MAX in *. lia.
Qed.

Theorem quorum_prefix_refuted : stmt_quorum_prefix_refuted.
Proof.
  exists 3, 5. unfold U64_MAX.
  split; [lia|]. split; [lia|]. split; [vm_compute; reflexivity | lia].
Qed.

Lemma memN_false a l : memN a l = false -> ~ In a l.
Proof.
  induction l as [|x l IH]; cbn [memN In]; intros H.
  - intros [].
  - apply orb_false_iff in H. destruct H as [H1 H2].
    apply N.eqb_neq in H1. intros [E|E]; [congruence | exact (IH H2 E)].
Qed.

Lemma lookup_addr vs a v : lookup vs a = Some v -> v_addr v = a.
Proof.
  induction vs as [|w vs IH]; cbn [lookup]; intros H.
  - discriminate.
  - destruct (lookup vs a) as [u|] eqn:E.
    + inversion H; subst. apply IH; reflexivity.
    + destruct (N.eqb_spec (v_addr w) a) as [Ea|Ea]; [|discriminate].
      inversion H; subst; reflexivity.
Qed.

Lemma total_power_bound vs : forall acc t, acc <= U64_MAX -> total_power vs acc = Some t -> t <= U64_MAX.
Proof.
  induction vs as [|v vs IH]; cbn [total_power]; intros acc t Ha H.
  - inversion H; subst; exact Ha.
  - destruct (checked_add U64_MAX acc (v_power v)) as [a|] eqn:E; [|discriminate].
    apply checked_add_Some in E. destruct E as [-> E]. eapply IH; eassumption.
Qed.

Lemma tally_inv vs all : forall sigs seen acc c,
  incl sigs all -> tally vs sigs seen acc = inl c ->
  (acc <= U64_MAX -> c <= U64_MAX) /\
  exists signers,
    fresh (map v_addr signers) seen /\
    Forall (fun v => lookup vs (v_addr v) = Some v /\ In (CsCommit (v_addr v) SigValid) all)
      signers /\
    c <= acc + sumN (map v_power signers).
Proof.
  induction sigs as [|s sigs IH]; intros seen acc c Hall H.
  - cbn [tally] in H. inversion H; subst. split; [tauto|].
    exists []. cbn [map sumN]. split; [apply fresh_nil|].
    split; [constructor|lia].
  - apply incl_cons_inv in Hall as [Hin Hall]. cbn [tally] in H.
    destruct s as [| |a st]; [exact (IH _ _ _ Hall H)|exact (IH _ _ _ Hall H)|].
    destruct st; try discriminate.
    + destruct (lookup vs a) as [w|] eqn:El; [|discriminate].
      destruct (memN a seen) eqn:Em; [discriminate|]. apply memN_false in Em.
      destruct (IH _ _ _ Hall H) as [Hb [S [Hf [Hs Hc]]]].
      pose proof (lookup_addr _ _ _ El) as Ea. subst a.
      split; [intros _; apply Hb; unfold saturating_add; lia|].
      exists (w :: S). cbn [map sumN]. split; [apply fresh_cons; split; assumption|].
      split; [constructor; [split; assumption|exact Hs]|].
      unfold saturating_add in Hc. lia.
    + destruct (lookup vs a) as [w|]; [|discriminate].
      destruct (memN a seen); discriminate.
Qed.

Theorem tally_sound : stmt_tally_sound.
Proof.
  unfold stmt_tally_sound, ensure_commit_has_quorum. intros ch sh vs sigs H.
  destruct (N.eqb_spec ch sh) as [E|E]; cbn [negb] in H; [|discriminate].
  split; [exact E|].
  destruct (total_power vs 0) as [total|] eqn:Et; [|discriminate].
  destruct (tally vs sigs [] 0) as [c|e] eqn:Ec; [|discriminate].
  destruct (total <? c); [discriminate|].
  destruct (quorum c total) eqn:Eq; cbn [negb] in H; [|discriminate].
  destruct (tally_inv _ sigs _ _ _ _ (incl_refl _) Ec) as [Hb [S [[Hn _] [Hs Hc]]]].
  assert (Hc64 : c <= U64_MAX) by (apply Hb; unfold U64_MAX; lia).
  assert (Ht64 : total <= U64_MAX).
  { eapply total_power_bound; [|exact Et]. unfold U64_MAX; lia. }
  apply (quorum_exact c total Hc64 Ht64) in Eq.
  exists total, S. split; [reflexivity|]. split; [exact Hn|]. split.
  - apply Forall_forall. exact Hs.
  - lia.
Qed.

Theorem metadata_accept : stmt_metadata_accept.
Proof.
  unfold stmt_metadata_accept, accept_metadata. intros cf m H.
  destruct (cf (md_height m)) as [c|]; [|discriminate].
  apply andb_true_iff in H. destruct H as [H1 H2].
  apply N.eqb_eq in H1. apply N.eqb_eq in H2.
  exists c. split; [reflexivity|]. split; assumption.
Qed.

Theorem metadata_prefix_refuted : stmt_metadata_prefix_refuted.
Proof.
  exists (fun _ => Some {| ci_chain := 0; ci_hash := 0 |}),
         {| md_height := 0; md_chain := 0; md_hash := 1 |}.
  split; [reflexivity|].
  intros c Hc. inversion Hc; subst. cbn [ci_hash md_hash]. discriminate.
Qed.

Theorem verify_all_sound : stmt_verify_all_sound.
Proof.
  unfold stmt_verify_all_sound, verify_all. intros cf nf ms m H.
  apply filter_In in H. destruct H as [H1 H2].
  apply andb_true_iff in H2. destruct H2 as [H2 H3].
  apply N.leb_le in H2.
  split; [exact H1|]. split; assumption.
Qed.

Lemma remove_hash_In h ms m : In m (remove_hash h ms) -> In m ms.
Proof.
  induction ms as [|x ms IH]; cbn [remove_hash]; intros H.
  - exact H.
  - destruct (md_hash x =? h).
    + right; exact H.
    + destruct H as [H|H]; [left; exact H|right; exact (IH H)].
Qed.

Lemma reconstruct_inv audit hs0 rs0 : forall rs hs,
  incl rs rs0 -> incl hs hs0 ->
  forall m o, In (m, o) (reconstruct audit hs rs) ->
    In m hs0 /\
    match o with
    | Some rb => In rb rs0 /\ rb_hash rb = md_hash m /\ audit rb m = true
    | None => True
    end.
Proof.
  induction rs as [|rb rs IH]; intros hs Hrs Hhs m o H; cbn [reconstruct] in H.
  - apply in_map_iff in H as [x [Hx1 Hx2]]. inversion Hx1; subst.
    split; [exact (Hhs _ Hx2)|exact I].
  - apply incl_cons_inv in Hrs as [Hrb Hrs].
    destruct (find_hash (rb_hash rb) hs) as [m0|] eqn:Ef; [|exact (IH hs Hrs Hhs m o H)].
    destruct (audit rb m0) eqn:Ea; [|exact (IH hs Hrs Hhs m o H)].
    destruct H as [H|H].
    + inversion H; subst. apply find_some in Ef as [F1 F2]. apply N.eqb_eq in F2.
      split; [exact (Hhs _ F1)|]. split; [exact Hrb|]. split; [symmetry; exact F2|exact Ea].
    + apply (IH (remove_hash (rb_hash rb) hs)); [exact Hrs| |exact H].
      intros x Hx. exact (Hhs _ (remove_hash_In _ _ _ Hx)).
Qed.

Theorem reconstruct_bound : stmt_reconstruct_bound.
Proof. intros audit hs rs. apply reconstruct_inv; apply incl_refl. Qed.

(** With powers 10/10/10 and signers 1 and 3 the committed power is exactly two thirds
    (3*20 = 2*30), which the strict threshold rejects; the accepting instance below gives
    validator 3 power 11 (3*21 = 63 > 62 = 2*31). *)
Example tally_exact_two_thirds_rejected :
  ensure_commit_has_quorum 5 5
    [ {|v_addr:=1;v_power:=10|}; {|v_addr:=2;v_power:=10|}; {|v_addr:=3;v_power:=10|} ]
    [CsCommit 1 SigValid; CsCommit 3 SigValid; CsAbsent] = Some ENoQuorum.
Proof. vm_compute; reflexivity. Qed.

Example tally_accepts_somewhere :
  ensure_commit_has_quorum 5 5
    [ {|v_addr:=1;v_power:=10|}; {|v_addr:=2;v_power:=10|}; {|v_addr:=3;v_power:=11|} ]
    [CsCommit 1 SigValid; CsCommit 3 SigValid; CsAbsent] = None.
Proof. vm_compute; reflexivity. Qed.

Example dup_rejected :
  ensure_commit_has_quorum 5 5
    [ {|v_addr:=1;v_power:=34|}; {|v_addr:=2;v_power:=33|}; {|v_addr:=3;v_power:=33|} ]
    [CsCommit 1 SigValid; CsCommit 1 SigValid] = Some EDuplicateVote.
Proof. vm_compute; reflexivity. Qed.

Print Assumptions quorum_exact.
Print Assumptions quorum_prefix_refuted.
Print Assumptions tally_sound.
Print Assumptions metadata_accept.
Print Assumptions metadata_prefix_refuted.
Print Assumptions verify_all_sound.
Print Assumptions reconstruct_bound.
Print Assumptions tally_exact_two_thirds_rejected.
Print Assumptions tally_accepts_somewhere.
Print Assumptions dup_rejected.
