(** C16 — proofs.  On a well-formed current bundle [try_push] is a case distinction on three comparisons;
    the FIFO identity needs no invariant; sizes and the queue bound are one. *)
From Astria Require Import Bundle.BundleModel.

Definition ids (b : bundle) : list N := map it_id (b_items b).
Definition true_size (b : bundle) : N := sumN (map it_size (b_items b)).

Definition WF (mx : N) (b : bundle) : Prop :=
  b_size b = true_size b /\ true_size b <= mx.

Definition Inv (s : st) : Prop :=
  WF (maxb s) (cur s) /\ Forall (WF (maxb s)) (fin s) /\ lenN (fin s) <= capq s.

(** everything accepted and not yet emitted, oldest first *)
Definition pending (s : st) : list N := concat (map ids (fin s)) ++ ids (cur s).

Definition accepted1 (o : op) (x : out) : list N :=
  match o, x with Push id _, OOk => [id] | _, _ => [] end.
Definition emitted1 (x : out) : list N :=
  match x with OBundle b => ids b | _ => [] end.

Fixpoint accepted (ops : list op) (outs : list out) : list N :=
  match ops, outs with
  | o :: r, x :: xs => accepted1 o x ++ accepted r xs
  | _, _ => []
  end.
Definition emitted (outs : list out) : list N := concat (map emitted1 outs).

Lemma WF_empty mx : WF mx empty_bundle.
Proof. unfold WF, true_size; cbn. split; [reflexivity|lia]. Qed.

Definition pushed (b : bundle) (it : item) : bundle :=
  {| b_items := b_items b ++ [it]; b_size := true_size b + it_size it |}.

Lemma true_size_pushed b it : true_size (pushed b it) = true_size b + it_size it.
Proof. unfold true_size; cbn [pushed b_items]. rewrite map_app, sumN_app. cbn [map sumN]. lia. Qed.

Lemma WF_pushed mx b it : true_size b + it_size it <= mx -> WF mx (pushed b it).
Proof. intros H. unfold WF. rewrite true_size_pushed. split; [reflexivity|exact H]. Qed.

(** [2 * mx <= U64_MAX] (the C16 statements' hypothesis) rules out saturation; [mx < U64_MAX]
    would do, a saturated sum still exceeding [mx]. *)
Lemma sb_try_push_WF mx b it :
  2 * mx <= U64_MAX -> WF mx b ->
  sb_try_push mx b it =
    if mx <? it_size it then inr TooLarge
    else if mx <? true_size b + it_size it then inr NotEnoughSpace
    else inl (pushed b it).
Proof.
  intros Hmx [Hsz Hle]. unfold sb_try_push.
  destruct (N.ltb_spec mx (it_size it)); [reflexivity|].
  rewrite Hsz, saturating_add_exact by lia. reflexivity.
Qed.

Lemma try_push_WF s it :
  2 * maxb s <= U64_MAX -> WF (maxb s) (cur s) ->
  try_push s it =
    if maxb s <? it_size it then (s, OTooLarge)
    else if maxb s <? true_size (cur s) + it_size it then
      if capq s <=? lenN (fin s) then (s, OQueueFull)
      else ({| cur := pushed empty_bundle it; fin := fin s ++ [cur s];
               maxb := maxb s; capq := capq s |}, OOk)
    else ({| cur := pushed (cur s) it; fin := fin s; maxb := maxb s; capq := capq s |}, OOk).
Proof.
  intros Hmx Hcur. unfold try_push.
  rewrite !sb_try_push_WF by (assumption || apply WF_empty).
  destruct (N.ltb_spec (maxb s) (it_size it)) as [|Hfit]; [reflexivity|].
  destruct (maxb s <? true_size (cur s) + it_size it); [|reflexivity].
  destruct (capq s <=? lenN (fin s)); [reflexivity|].
  (* the [expect] of the code: an item that fits a bundle fits an empty one *)
  change (true_size empty_bundle) with 0. rewrite N.add_0_l.
  destruct (N.ltb_spec (maxb s) (it_size it)); [lia|reflexivity].
Qed.

Lemma lenN_app {A} (l : list A) x : lenN (l ++ [x]) = lenN l + 1.
Proof. unfold lenN. rewrite app_length; cbn [length]. lia. Qed.

Lemma lenN_cons {A} (l : list A) x : lenN (x :: l) = lenN l + 1.
Proof. unfold lenN. cbn [length]. lia. Qed.

Lemma sb_try_push_ids mx b it b' :
  sb_try_push mx b it = inl b' -> ids b' = ids b ++ [it_id it].
Proof.
  unfold sb_try_push. destruct (_ <? _); [discriminate|]. destruct (_ <? _); [discriminate|].
  intros [= <-]. apply map_app.
Qed.

Lemma step_pending s o :
  let '(s', x) := step s o in emitted1 x ++ pending s' = pending s ++ accepted1 o x.
Proof.
  destruct o as [id sz| |]; cbn [step].
  - unfold try_push.
    destruct (sb_try_push (maxb s) (cur s) _) as [b'|[|]] eqn:E1; [| |symmetry; apply app_nil_r].
    + unfold pending. cbn. rewrite (sb_try_push_ids _ _ _ _ E1). apply app_assoc.
    + destruct (capq s <=? lenN (fin s)); [symmetry; apply app_nil_r|].
      destruct (sb_try_push (maxb s) empty_bundle _) as [b'|e] eqn:E2; [|symmetry; apply app_nil_r].
      unfold pending. cbn. rewrite (sb_try_push_ids _ _ _ _ E2), map_app, concat_app. cbn.
      rewrite app_nil_r. reflexivity.
  - destruct (fin s) eqn:E; unfold pending; rewrite ?E; cbn; rewrite app_nil_r;
      [reflexivity|apply app_assoc].
  - destruct (fin s) eqn:E; unfold pending; rewrite ?E; cbn; rewrite ?app_nil_r;
      [reflexivity|apply app_assoc].
Qed.

Definition step_ok (s s' : st) (x : out) : Prop :=
  Inv s' /\ maxb s' = maxb s /\ capq s' = capq s /\ forall b, x = OBundle b -> WF (maxb s) b.

Lemma step_ok_same s x : Inv s -> (forall b, x <> OBundle b) -> step_ok s s x.
Proof.
  intros HI Hx. split; [exact HI|]. do 2 (split; [reflexivity|]). intros b E. destruct (Hx b E).
Qed.

Lemma step_ok_pop s b r :
  Inv s -> fin s = b :: r ->
  step_ok s {| cur := cur s; fin := r; maxb := maxb s; capq := capq s |} (OBundle b).
Proof.
  unfold step_ok, Inv. intros (Hcur & Hfin & Hlen) E. rewrite E in *. cbn [cur fin maxb capq].
  apply Forall_cons_iff in Hfin. rewrite lenN_cons in Hlen.
  split; [split; [exact Hcur|split; [apply Hfin|lia]]|]. do 2 (split; [reflexivity|]).
  intros b' [= <-]. apply Hfin.
Qed.

Lemma step_inv s o :
  2 * maxb s <= U64_MAX -> Inv s -> let '(s', x) := step s o in step_ok s s' x.
Proof.
  intros Hmx HI. pose proof HI as (Hcur & Hfin & Hlen).
  destruct o as [id sz| |]; cbn [step].
  - rewrite try_push_WF by assumption. cbn [it_size].
    destruct (N.ltb_spec (maxb s) sz); [apply step_ok_same; [exact HI|discriminate]|].
    destruct (N.ltb_spec (maxb s) (true_size (cur s) + sz)).
    + destruct (N.leb_spec (capq s) (lenN (fin s))); [apply step_ok_same; [exact HI|discriminate]|].
      unfold step_ok, Inv. cbn [cur fin maxb capq]. rewrite lenN_app.
      split; [split; [|split]|].
      * apply WF_pushed. cbn. lia.
      * apply Forall_app. split; [assumption|]. constructor; [assumption|constructor].
      * lia.
      * do 2 (split; [reflexivity|]). discriminate.
    + unfold step_ok, Inv. cbn [cur fin maxb capq].
      split; [split; [apply WF_pushed|split]; assumption|].
      do 2 (split; [reflexivity|]). discriminate.
  - destruct (fin s) as [|b r] eqn:Hf; [apply step_ok_same; [exact HI|discriminate]|].
    apply (step_ok_pop s b r HI Hf).
  - destruct (fin s) as [|b r] eqn:Hf; [|apply (step_ok_pop s b r HI Hf)].
    unfold step_ok, Inv. cbn [cur fin maxb capq].
    split; [split; [apply WF_empty|split; [constructor|apply N.le_0_l]]|].
    do 2 (split; [reflexivity|]). intros b [= <-]. exact Hcur.
Qed.

Lemma Inv_init mx cap : Inv (init mx cap).
Proof.
  unfold Inv, init; cbn [cur fin maxb capq].
  split; [apply WF_empty | split; [constructor | unfold lenN; cbn [length]; lia]].
Qed.

Lemma run_pending ops : forall s,
  let '(s', outs) := run s ops in emitted outs ++ pending s' = pending s ++ accepted ops outs.
Proof.
  induction ops as [|o r IH]; intros s; cbn [run].
  - symmetry. apply app_nil_r.
  - pose proof (step_pending s o) as H1. destruct (step s o) as [s1 x].
    specialize (IH s1). destruct (run s1 r) as [s2 xs].
    unfold emitted in *. cbn [map concat accepted].
    rewrite <- app_assoc, IH, app_assoc, H1, <- app_assoc. reflexivity.
Qed.

Lemma run_wf ops : forall s,
  2 * maxb s <= U64_MAX -> Inv s ->
  let '(s', outs) := run s ops in
  Inv s' /\ maxb s' = maxb s /\ capq s' = capq s /\
  Forall (fun x => forall b, x = OBundle b -> WF (maxb s) b) outs.
Proof.
  induction ops as [|o r IH]; intros s Hmx HI; cbn [run].
  - split; [assumption|]. do 2 (split; [reflexivity|]). constructor.
  - pose proof (step_inv s o Hmx HI) as Hst.
    destruct (step s o) as [s1 x].
    destruct Hst as (HI1 & Hm1 & Hc1 & Hb1).
    assert (Hmx1 : 2 * maxb s1 <= U64_MAX) by (rewrite Hm1; exact Hmx).
    specialize (IH s1 Hmx1 HI1).
    destruct (run s1 r) as [s2 xs].
    destruct IH as (HI2 & Hm2 & Hc2 & Hb2).
    split; [assumption|split; [congruence|split; [congruence|]]].
    constructor; [assumption|]. rewrite Hm1 in Hb2. exact Hb2.
Qed.

(** Exactly once, in order: what has been emitted, followed by what is still queued, is
    exactly the sequence of accepted transactions — after every script. *)
Theorem fifo_exactly_once mx cap ops :
  2 * mx <= U64_MAX ->
  let '(s', outs) := run (init mx cap) ops in
  emitted outs ++ pending s' = accepted ops outs.
Proof.
  intros _. exact (run_pending ops (init mx cap)).
Qed.

(** No emitted bundle exceeds the maximum, and its reported size is its true size. *)
Theorem emitted_within_limit mx cap ops :
  2 * mx <= U64_MAX ->
  let '(_, outs) := run (init mx cap) ops in
  forall b, In (OBundle b) outs -> true_size b <= mx /\ b_size b = true_size b.
Proof.
  intros Hmx. pose proof (run_wf ops (init mx cap) Hmx (Inv_init mx cap)) as H.
  destruct (run (init mx cap) ops) as [s' outs].
  destruct H as (_ & _ & _ & H). intros b Hb.
  rewrite Forall_forall in H. destruct (H _ Hb b eq_refl) as [H1 H2]. split; assumption.
Qed.

(** Refusal: only when the item alone is too large, or it does not fit the current bundle
    and the finished queue is full; a refusal changes nothing. *)
Theorem refusal_exact s id sz :
  2 * maxb s <= U64_MAX -> Inv s ->
  let '(s', x) := step s (Push id sz) in
  (x = OTooLarge <-> maxb s < sz) /\
  (x = OQueueFull <-> (sz <= maxb s /\ maxb s < true_size (cur s) + sz /\ capq s <= lenN (fin s))) /\
  (x = OOk \/ x = OTooLarge \/ x = OQueueFull) /\
  (x <> OOk -> s' = s).
Proof.
  intros Hmx (Hcur & _). cbn [step]. rewrite try_push_WF by assumption. cbn [it_size].
  destruct (N.ltb_spec (maxb s) sz) as [Hl|Hl].
  { split; [tauto|]. split; [split; [discriminate|lia]|]. split; [tauto|reflexivity]. }
  destruct (N.ltb_spec (maxb s) (true_size (cur s) + sz)) as [Hf|Hf].
  - destruct (N.leb_spec (capq s) (lenN (fin s))) as [Hc|Hc].
    + split; [split; [discriminate|lia]|]. split; [tauto|]. split; [tauto|reflexivity].
    + split; [split; [discriminate|lia]|]. split; [split; [discriminate|lia]|].
      split; [tauto|]. intros H. destruct (H eq_refl).
  - split; [split; [discriminate|lia]|]. split; [split; [discriminate|lia]|].
    split; [tauto|]. intros H. destruct (H eq_refl).
Qed.

(** The finished queue never exceeds its capacity, in every reachable state. *)
Theorem finished_within_capacity mx cap ops :
  2 * mx <= U64_MAX ->
  let '(s', _) := run (init mx cap) ops in lenN (fin s') <= cap.
Proof.
  intros Hmx. pose proof (run_wf ops (init mx cap) Hmx (Inv_init mx cap)) as H.
  destruct (run (init mx cap) ops) as [s' outs].
  destruct H as ((_ & _ & H) & _ & Hc & _). cbn [init capq] in Hc. rewrite Hc in H. exact H.
Qed.

(** Non-vacuity: a concrete run with flushes, refusals and pops. *)
Example c16_run_example :
  let ops := [Push 1 40; Push 2 40; Push 3 40; Push 4 101; Push 5 60; Push 6 60; PopFinished; PopNow; PopNow] in
  let '(s', outs) := run (init 100 1) ops in
  outs = [OOk; OOk; OOk; OTooLarge; OOk; OQueueFull;
          OBundle {| b_items := [{|it_id:=1;it_size:=40|};{|it_id:=2;it_size:=40|}]; b_size := 80 |};
          OBundle {| b_items := [{|it_id:=3;it_size:=40|};{|it_id:=5;it_size:=60|}]; b_size := 100 |};
          OBundle empty_bundle].
Proof. vm_compute. reflexivity. Qed.
